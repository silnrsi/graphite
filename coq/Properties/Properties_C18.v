(* Properties_C18.v — the property theorems for C18 (feature values).  Model: Model/FeatModel.v. *)
From GR Require Import Base.Bytes Model.FeatModel Proofs.FeatProofs Model.TagModel Proofs.TagProofs Gen.GenFeat.
Local Open Scope N_scope.

(* gr_fref_set_feature_value succeeds exactly when v does not exceed the feature's largest defined setting
   (0xffffffff, i.e. any 16-bit value, when it defines none) *)
Theorem C18_set_succeeds_iff : forall f v fv, (exists fv', set_val f v fv = Some fv') <-> v <= f_max f.
Proof. exact set_succeeds_iff. Qed.
Print Assumptions C18_set_succeeds_iff.

(* after a failure nothing is produced: the caller's vector is untouched *)
Theorem C18_set_fails_unchanged : forall f v fv, f_max f < v -> set_val f v fv = None.
Proof. intros f v fv H. unfold set_val. replace (f_max f <? v) with true by lia. reflexivity. Qed.
Print Assumptions C18_set_fails_unchanged.

(* The same with several faces in play (a Features object carries the identity of the feature map it belongs to; gr_featureval_clone(NULL)
   hands out an unbound one): a write succeeds exactly when the value is in range AND the object is unbound or already belongs to the
   writer's face; only a SUCCESSFUL write binds it; a refused write returns nothing — the object, its binding included, is untouched. *)
Theorem C18_set_on_succeeds_iff : forall face f v x,
  (exists x', set_val_on face f v x = Some x') <-> (v <= f_max f /\ (fv_map x = None \/ fv_map x = Some face)).
Proof.
  intros face f v x. unfold set_val_on. split.
  - intros [x' H]. destruct (set_val f v (fv_words x)) as [w|] eqn:E; [|discriminate].
    split; [apply (set_succeeds_iff f v (fv_words x)); eexists; exact E|].
    destruct (fv_map x) as [m|]; [|left; reflexivity]. destruct (N.eqb_spec m face) as [Em|]; [subst m; right; reflexivity|discriminate].
  - intros [Hv Hm]. destruct (proj2 (set_succeeds_iff f v (fv_words x)) Hv) as [w E]. rewrite E.
    destruct Hm as [-> | ->]; [eexists; reflexivity|]. rewrite N.eqb_refl. eexists; reflexivity.
Qed.
Print Assumptions C18_set_on_succeeds_iff.
Theorem C18_set_on_fails_unchanged : forall face f v x, f_max f < v \/ (exists m, fv_map x = Some m /\ m <> face) -> set_val_on face f v x = None.
Proof.
  intros face f v x [H|[m [Hm Hne]]]; unfold set_val_on.
  - rewrite (C18_set_fails_unchanged f v _ H). reflexivity.
  - destruct (set_val f v (fv_words x)); [|reflexivity]. rewrite Hm, (proj2 (N.eqb_neq m face) Hne). reflexivity.
Qed.
Print Assumptions C18_set_on_fails_unchanged.
Theorem C18_get_set_on_same : forall face f v x x', field_ok f -> set_val_on face f v x = Some x' -> get_val_on face f x' = v.
Proof.
  intros face f v x x' Hf H. destruct (set_on_binds H) as [Hm Hw]. unfold get_val_on. rewrite Hm, N.eqb_refl.
  exact (get_set_same f v _ _ Hf Hw).
Qed.
Print Assumptions C18_get_set_on_same.
Theorem C18_get_set_on_other : forall face f g v x x', field_ok f -> field_ok g -> disjoint f g -> fv_map x = Some face ->
  set_val_on face f v x = Some x' -> get_val_on face g x' = get_val_on face g x.
Proof.
  intros face f g v x x' Hf Hg Hd Hb H. destruct (set_on_binds H) as [Hm Hw]. unfold get_val_on. rewrite Hm, Hb, N.eqb_refl.
  exact (get_set_other f g v _ _ Hf Hg Hd Hw).
Qed.
Print Assumptions C18_get_set_on_other.
Theorem C18_get_set_on_foreign : forall face other f g v x x', other <> face -> fv_map x = None \/ fv_map x = Some face ->
  set_val_on face f v x = Some x' -> get_val_on other g x' = 0 /\ get_val_on other g x = 0.
Proof.
  intros face other f g v x x' Hne Hb H. destruct (set_on_binds H) as [Hm _]. unfold get_val_on. rewrite Hm.
  assert (E : (face =? other) = false) by (apply N.eqb_neq; congruence). rewrite E.
  split; [reflexivity|]. destruct Hb as [-> | ->]; [reflexivity|]. rewrite E. reflexivity.
Qed.
Print Assumptions C18_get_set_on_foreign.
(* non-vacuity: an out-of-range write to an unbound object leaves it unbound, so a feature of ANOTHER face can still be written *)
Example C18_example_unbound_after_refusal :
  let f := fst (ctor 0 3 1 0 0 []) in
  set_val_on 1 f 4 blank = None /\ (exists x', set_val_on 2 f 1 blank = Some x' /\ get_val_on 2 f x' = 1 /\ get_val_on 1 f x' = 0 /\ set_val_on 1 f 1 x' = None).
Proof. vm_compute. split; [reflexivity|]. eexists. repeat split. Qed.

(* every Feat table the loader accepts allocates well-formed, pairwise disjoint bit fields (any number of features,
   any maxima below 2^32: widths straddling word boundaries included) *)
Theorem C18_alloc_disjoint : forall maxvals l, Forall (fun m => m < W32) maxvals -> alloc maxvals 0 = Some l ->
  Forall field_ok l /\ map f_max l = maxvals /\ ForallOrdPairs disjoint l.
Proof.
  intros maxvals l Hm H. destruct (alloc_spec maxvals 0 l ltac:(unfold MAX_BITS; lia) Hm H) as (A & _ & C & D).
  repeat split; assumption.
Qed.
Print Assumptions C18_alloc_disjoint.

Theorem C18_get_set_same : forall f v fv fv', field_ok f -> set_val f v fv = Some fv' -> get_val f fv' = v.
Proof. exact get_set_same. Qed.
Print Assumptions C18_get_set_same.

(* every other feature's value is unchanged, whatever the vector held (any history of earlier operations) *)
Theorem C18_get_set_other : forall f g v fv fv', field_ok f -> field_ok g -> disjoint f g ->
  set_val f v fv = Some fv' -> get_val g fv' = get_val g fv.
Proof. exact get_set_other. Qed.
Print Assumptions C18_get_set_other.

(* language selection: the default vector for language 0 and for unknown languages, the Sill entry's vector otherwise;
   space-padded and zero-padded tags select the same entry (zeropad is applied by gr_face_featureval_for_lang) *)
Theorem C18_lang_default : forall fm langs t, (t = 0 \/ Forall (fun lf => fst lf <> t) langs) ->
  clone_for_lang fm langs t = fm_defaults fm.
Proof.
  intros fm langs t [->|H]; [reflexivity|]. unfold clone_for_lang. destruct (t =? 0); [reflexivity|].
  rewrite <- (app_nil_r langs), find_skip; [reflexivity|]. exact (Forall_impl _ (fun lf => proj2 (N.eqb_neq (fst lf) t)) H).
Qed.
Print Assumptions C18_lang_default.

Theorem C18_lang_known : forall fm langs t fv rest1 rest2, t <> 0 -> langs = rest1 ++ (t, fv) :: rest2 ->
  Forall (fun lf => fst lf <> t) rest1 -> clone_for_lang fm langs t = fv.
Proof.
  intros fm langs t fv rest1 rest2 Ht -> H. unfold clone_for_lang. rewrite (proj2 (N.eqb_neq t 0) Ht).
  rewrite find_skip by exact (Forall_impl _ (fun lf => proj2 (N.eqb_neq (fst lf) t)) H). cbn [find fst]. rewrite N.eqb_refl. reflexivity.
Qed.
Print Assumptions C18_lang_known.

Theorem C18_lang_padding : forall s, all_bytes s -> (length s <= 4)%nat -> last s 0 <> 32 -> Forall (fun b => b <> 0) s ->
  forall fm langs, clone_for_lang fm langs (zeropad (be32_of (pad_to4 32 s))) = clone_for_lang fm langs (zeropad (be32_of (pad_to4 0 s))).
Proof. intros s H1 H2 H3 _ fm langs. rewrite (padding_agree s H1 H2 H3). reflexivity. Qed.
Print Assumptions C18_lang_padding.

Theorem C18_gen_constants_agree : GenFeat.storage_limit = FeatModel.MAX_BITS /\ GenFeat.chunk_bits = FeatModel.CHUNK /\
  (GenFeat.storage_limit + 64) / GenFeat.chunk_bits < 2 ^ GenFeat.index_bits.
Proof. repeat split; reflexivity. Qed.
Print Assumptions C18_gen_constants_agree.

(* non-vacuity: three features with maxima 1, 0xffffffff (no settings) and 300: the 32-bit one is moved to its own word *)
Example C18_example :
  match alloc [1; 0xffffffff; 300] 0 with
  | Some [a; b; c] => f_index a = 0 /\ f_index b = 1 /\ f_index c = 2 /\ f_bits c = 0 /\
                      (match set_val c 299 [0; 0; 0] with Some fv => get_val c fv = 299 /\ get_val b fv = 0 | None => False end) /\
                      set_val c 301 [0; 0; 0] = None
  | _ => False end.
Proof. vm_compute. repeat split; reflexivity. Qed.
