(* Properties_C11.v — the property theorems for C11 (UTF-8/16/32 decoding and counting).
   Model: Model/UtfModel.v (hand-written after src/inc/UtfCodec.h and count_unicode_chars in src/gr_segment.cpp).
   A region of memory is the list of its code units; a read outside it is the trap value None. *)
From GR Require Import Base.Bytes Model.UtfModel Proofs.UtfGeneric Proofs.UtfProofs
                       Gen.GenUtf.
Local Open Scope N_scope.

(* ---- gr_count_unicode_characters(enc, begin, end, &err): never reads outside [begin,end), for ANY content *)
Theorem C11_utf8_bounded_reads_inside : forall m, count_end get8 validate8 m <> None.
Proof. exact (count_end_no_oob get8_none_validate). Qed.
Print Assumptions C11_utf8_bounded_reads_inside.

Theorem C11_utf16_bounded_reads_inside : forall m, count_end get16 validate16 m <> None.
Proof. exact (count_end_no_oob get16_none_validate). Qed.
Print Assumptions C11_utf16_bounded_reads_inside.

Theorem C11_utf32_bounded_reads_inside : forall m, count_end get32 validate32 m <> None.
Proof. exact (count_end_no_oob get32_none_validate). Qed.
Print Assumptions C11_utf32_bounded_reads_inside.

(* ---- end == NULL: nothing beyond the first NUL unit is read (the region is exactly text + terminator) *)
Theorem C11_utf8_nul_reads_inside : forall t, count_nul get8 (t ++ [0]) <> None.
Proof. exact (count_nul_no_oob get8_len get8_nul get8_nul_zero). Qed.
Print Assumptions C11_utf8_nul_reads_inside.

Theorem C11_utf16_nul_reads_inside : forall t, count_nul get16 (t ++ [0]) <> None.
Proof. exact (count_nul_no_oob get16_len get16_nul get16_nul_zero). Qed.
Print Assumptions C11_utf16_nul_reads_inside.

Theorem C11_utf32_nul_reads_inside : forall t, count_nul get32 (t ++ [0]) <> None.
Proof. exact (count_nul_no_oob get32_len get32_nul get32_nul_zero). Qed.
Print Assumptions C11_utf32_nul_reads_inside.

(* ---- decoding is exact: every scalar round-trips through its canonical encoding, whatever follows *)
Theorem C11_utf8_roundtrip : forall u rest, u < 0x110000 /\ ~ (0xD800 <= u <= 0xDFFF) ->
  get8 (put8 u ++ rest) = Some (mkgot u (length (put8 u)) true).
Proof. exact get8_put8. Qed.
Print Assumptions C11_utf8_roundtrip.

Theorem C11_utf16_roundtrip : forall u rest, u < 0x110000 /\ ~ (0xD800 <= u <= 0xDFFF) ->
  get16 (put16 u ++ rest) = Some (mkgot u (length (put16 u)) true).
Proof. exact get16_put16. Qed.
Print Assumptions C11_utf16_roundtrip.

(* nothing above U+10FFFF and no surrogate code point is ever produced by a successful UTF-8 decode *)
Theorem C11_utf8_range : forall m g, get8 m = Some g -> g_ok g = true -> g_usv g < 0x110000 /\ ~ (0xD800 <= g_usv g <= 0xDFFF).
Proof.
  intros [|b0 r] g; [discriminate|]. intros [->|(u & t & _ & H)]%get8_some Hok; [discriminate|].
  destruct (H Hok) as (-> & Hv & _). exact Hv.
Qed.
Print Assumptions C11_utf8_range.

(* a surrogate code point is not a character in any encoding form: written out as three UTF-8 bytes (ED A0..BF xx) or as one UTF-32
   unit it decodes to U+FFFD with the error flag, as a lone surrogate does in UTF-16 (true of the repaired decoders: known_findings.txt) *)
Theorem C11_utf8_surrogates_refused : forall u, 0xD800 <= u <= 0xDFFF -> exists l, get8 (put8 u) = Some (mkgot 0xFFFD l false).
Proof.
  intros u H. rewrite <- (app_nil_r (put8 u)), get8_put8_any by (unfold limit; lia).
  replace (is_surrogate u) with true by (unfold is_surrogate; lia). eexists; reflexivity.
Qed.
Print Assumptions C11_utf8_surrogates_refused.
Theorem C11_utf32_surrogates_refused : forall u rest, 0xD800 <= u <= 0xDFFF -> get32 (u :: rest) = Some (mkgot 0xFFFD 1 false).
Proof.
  intros u rest H. unfold get32, limit, is_surrogate.
  replace ((u <? 0x110000) && negb ((0xD800 <=? u) && (u <? 0xE000))) with false by lia. reflexivity.
Qed.
Print Assumptions C11_utf32_surrogates_refused.

(* ---- well-formed text that does not end in a truncated sequence: exact count, *pError == NULL *)
Theorem C11_utf8_count_exact : forall us, Forall (fun u => (u < 0x110000 /\ ~ (0xD800 <= u <= 0xDFFF)) /\ u <> 0) us ->
  count_end get8 validate8 (enc_all put8 us) = Some (length us, None).
Proof. exact (count_end_exact get8_len get8_put8 validate8_put8 eq_refl). Qed.
Print Assumptions C11_utf8_count_exact.

Theorem C11_utf16_count_exact : forall us, Forall (fun u => valid16 u /\ u <> 0) us ->
  count_end get16 validate16 (enc_all put16 us) = Some (length us, None).
Proof. exact (count_end_exact get16_len get16_put16 validate16_put16 eq_refl). Qed.
Print Assumptions C11_utf16_count_exact.

Theorem C11_utf32_count_exact : forall us, Forall (fun u => (u < 0x110000 /\ ~ (0xD800 <= u <= 0xDFFF)) /\ u <> 0) us ->
  count_end get32 validate32 (enc_all put32 us) = Some (length us, None).
Proof. exact (count_end_exact get32_len get32_put32 validate32_put32 eq_refl). Qed.
Print Assumptions C11_utf32_count_exact.

(* ... and in the NUL-terminated form, whatever follows the terminator *)
Theorem C11_utf8_count_exact_nul : forall us rest, Forall (fun u => (u < 0x110000 /\ ~ (0xD800 <= u <= 0xDFFF)) /\ u <> 0) us ->
  count_nul get8 (enc_all put8 us ++ 0 :: rest) = Some (length us, None).
Proof. exact (count_nul_exact get8_len get8_nul_zero get8_put8). Qed.
Print Assumptions C11_utf8_count_exact_nul.

Theorem C11_utf16_count_exact_nul : forall us rest, Forall (fun u => valid16 u /\ u <> 0) us ->
  count_nul get16 (enc_all put16 us ++ 0 :: rest) = Some (length us, None).
Proof. exact (count_nul_exact get16_len get16_nul_zero get16_put16). Qed.
Print Assumptions C11_utf16_count_exact_nul.

(* ---- ill-formed text: the error is reported at the first ill-formed sequence and the count is the number
        of well-formed characters before it (so in particular it does not exceed that number) *)
Theorem C11_utf8_error_reported : forall us bad g, Forall (fun u => (u < 0x110000 /\ ~ (0xD800 <= u <= 0xDFFF)) /\ u <> 0) us ->
  get8 bad = Some g -> g_ok g = false -> validate8 (enc_all put8 us ++ bad) = true ->
  count_end get8 validate8 (enc_all put8 us ++ bad) = Some (length us, Some (length (enc_all put8 us))).
Proof. exact (count_end_error get8_len get8_put8). Qed.
Print Assumptions C11_utf8_error_reported.

Theorem C11_utf16_error_reported : forall us bad g, Forall (fun u => valid16 u /\ u <> 0) us ->
  get16 bad = Some g -> g_ok g = false -> validate16 (enc_all put16 us ++ bad) = true ->
  count_end get16 validate16 (enc_all put16 us ++ bad) = Some (length us, Some (length (enc_all put16 us))).
Proof. exact (count_end_error get16_len get16_put16). Qed.
Print Assumptions C11_utf16_error_reported.

(* whenever an error is reported, *pError points inside the buffer *)
Theorem C11_utf8_error_inside : forall m c e, count_end get8 validate8 m = Some (c, Some e) -> (e < length m)%nat.
Proof. exact (count_end_err_inside get8_len eq_refl). Qed.
Print Assumptions C11_utf8_error_inside.

Theorem C11_utf16_error_inside : forall m c e, count_end get16 validate16 m = Some (c, Some e) -> (e < length m)%nat.
Proof. exact (count_end_err_inside get16_len eq_refl). Qed.
Print Assumptions C11_utf16_error_inside.

(* ---- resynchronisation: an ill-formed sequence steps over at most 4 units and everything after the first
        is a continuation byte, so it never swallows the lead/ASCII byte of the next character *)
Theorem C11_utf8_resync : forall m g, get8 m = Some g ->
  (1 <= g_len g <= 4)%nat /\ Forall (fun b => is_cont b = true) (firstn (g_len g - 1) (tl m)).
Proof.
  intros m g H. destruct (get8_resync m g H) as (Hl & _ & Hc). exact (conj Hl Hc).
Qed.
Print Assumptions C11_utf8_resync.

(* ---- the same scalars in the three encodings decode to the same characters (bases are the prefix sums of
        the unit lengths); n is gr_make_seg's nChars *)
Theorem C11_encodings_agree : forall us n r8 r16 r32, Forall (fun u => valid16 u /\ u <> 0) us ->
  exists l8 l16 l32,
    read_text get8 n (enc_all put8 us ++ 0 :: r8) 0 = Some l8 /\
    read_text get16 n (enc_all put16 us ++ 0 :: r16) 0 = Some l16 /\
    read_text get32 n (enc_all put32 us ++ 0 :: r32) 0 = Some l32 /\
    map fst l8 = firstn n us /\ map fst l16 = firstn n us /\ map fst l32 = firstn n us.
Proof.
  intros us n r8 r16 r32 H. do 3 eexists.
  split; [exact (read_text_exact get8_nul_zero get8_put8 us n 0%nat r8 H)|].
  split; [exact (read_text_exact get16_nul_zero get16_put16 us n 0%nat r16 H)|].
  split; [exact (read_text_exact get32_nul_zero get32_put32 us n 0%nat r32 H)|].
  rewrite <- !firstn_map, !map_fst_combine_bases. repeat split.
Qed.
Print Assumptions C11_encodings_agree.

(* ---- tie A: the decoder tables regenerated from src/UtfCodec.cpp on this run are the model's *)
Theorem C11_gen_tables_agree : GenUtf.sz_lut = UtfModel.sz_lut /\ GenUtf.mask_lut = UtfModel.mask_lut /\ GenUtf.limit8 = UtfModel.limit
  /\ GenUtf.limit32 = UtfModel.limit.
Proof. repeat split; reflexivity. Qed.
Print Assumptions C11_gen_tables_agree.

Example C11_example :
  count_end get8 validate8 [0x7F; 0xDF; 0xBF; 0xEF; 0xBF; 0xBF; 0xF4; 0x8F; 0xBF; 0xBF] = Some (4%nat, None) /\
  count_end get8 validate8 [0x65; 0x75; 0xF3; 0x84; 0xA5; 0xF5; 0x75] = Some (2%nat, Some 2%nat) /\
  count_end get8 validate8 [0x65; 0xE3; 0x84] = Some (0%nat, Some 2%nat) /\
  enc_all put8 [0x7F; 0x7FF; 0xFFFF; 0x10FFFF] = [0x7F; 0xDF; 0xBF; 0xEF; 0xBF; 0xBF; 0xF4; 0x8F; 0xBF; 0xBF].
Proof. vm_compute. repeat split. Qed.
