(* Properties_C09.v — the property theorems for C09 (a preloaded face can be shared by concurrent shapers).
   Model: Model/MemoModel.v.  What the model can carry: after gr_face_preloadAll the face state is never written, so every
   schedule of lookups by any number of threads returns the single-threaded answers.  What it cannot exhibit: the memory model
   (data races proper), which the check decides with ThreadSanitizer on the real library. *)
From GR Require Import Base.Bytes Model.MemoModel Proofs.MemoProofs.
From Coq Require Import NArith.
Local Open Scope N_scope.

(* ANY schedule (sequence of (thread, glyph) lookups) on a preloaded cache: every lookup returns the cache-free answer and the
   cache is left exactly as it was — lookups are reads only, hence they commute and no interleaving can be observed. *)
Theorem C09_preloaded_schedule_free : forall (V : Type) (load : N -> option V) n cp (sched : list (nat * N)), init_preload V load n = Some cp ->
  run V load n cp (map snd sched) = (map (spec V load n) (map snd sched), cp).
Proof.
  intros V load n cp sched Hp. destruct (init_preload_inv Hp) as [Hi Hf].
  destruct (run_correct (map snd sched) Hi) as [H1 [_ H3]].
  destruct (run V load n cp (map snd sched)) as [vs c2]. cbn [fst snd] in *. rewrite H1, (H3 Hf). reflexivity.
Qed.
Print Assumptions C09_preloaded_schedule_free.

(* a preloaded cache has dropped its loader: no table is consulted after construction *)
Theorem C09_preloaded_no_loader : forall (V : Type) (load : N -> option V) n cp, init_preload V load n = Some cp -> gc_loader V cp = false.
Proof. intros V load n cp H. exact (proj2 (init_preload_inv H)). Qed.
Print Assumptions C09_preloaded_no_loader.

(* preloading is all or nothing: a face asked to preload its glyphs is refused exactly when it has no glyphs or some glyph below the
   glyph count cannot be read -- it is never handed out in on-demand mode (which would write to the shared cache under threads) *)
Theorem C09_preload_refused_iff : forall (V : Type) (load : N -> option V) n,
  init_preload V load n = None <-> n = 0 \/ exists g, g < n /\ load g = None.
Proof. exact init_preload_refused_iff. Qed.
Print Assumptions C09_preload_refused_iff.

Example C09_example :
  let load := fun g => if g <? 3 then Some (g + 7) else None in
  match init_preload N load 3 with
  | Some c => run N load 3 c (map snd [(0%nat, 2); (1%nat, 0); (0%nat, 5); (1%nat, 2)]) = ([Some 9; Some 7; Some 7; Some 9], c)
  | None => False
  end.
Proof. vm_compute. reflexivity. Qed.
