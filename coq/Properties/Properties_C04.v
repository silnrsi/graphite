(* Properties_C04.v — the property theorems for C04 (attachments form a forest).  Model: Model/StreamModel.v *)
From GR Require Import Base.Bytes Model.StreamModel Proofs.StreamProofs Proofs.ForestProofs.
From Coq Require Import ZArith.
Local Open Scope Z_scope.

(* The parent relation never closes a cycle: for ANY sequence of appends, insertions, deletions, associations, reversals,
   associateChars, attachments (accepted or refused, re-attachments, attempts to attach an ancestor to its descendant) and
   detachments, no slot is its own n-th ancestor for any n > 0.  No attachment that Slot::setAttr(gr_slatAttTo) accepts closes a
   cycle (the foundOther test over a parent chain that ended before its bound); the converse fails at the depth limit, where
   count >= 100 also refuses attachments that would close none.
   PARTIAL: the copying operations (PUT_COPY, TEMP_COPY, freeSlot) are not covered by this theorem — PUT_COPY is safe only under
   its no-parent / no-child precondition, which needs the child-chain consistency invariant, not proved; the model computes
   parents and child chains through those too and they are compared with the implementation on every snapshot. *)
Theorem C04_parents_acyclic : forall ops n rtl st, Forall forest_op ops -> run_ops (st0 n rtl) ops = Ok st -> acyclic (st_attr st).
Proof. intros ops n rtl st Hf H. exact (forest_ops_keep_acyclic ops (st0 n rtl) st Hf (st0_acyclic n rtl) H). Qed.
Print Assumptions C04_parents_acyclic.

(* the single step: an accepted attachment keeps the relation acyclic; a refused one changes nothing *)
Theorem C04_attach_keeps_acyclic : forall st s other acc st', acyclic (st_attr st) -> do_attach st s other acc = Ok st' -> acyclic (st_attr st').
Proof. exact @attach_keeps_acyclic. Qed.
Print Assumptions C04_attach_keeps_acyclic.

(* PARTIAL: attaching, detaching, copying and freeing keep the segment's stream free of repetitions; that they change neither
   which slots it holds (freeing takes its own slot out) nor their order is not stated *)
Theorem C04_attachment_ops_keep_stream_partial : forall st o st', NoDup (st_stream st) ->
  (match o with OAttach _ _ _ | ODetach _ | OPutCopy _ _ | OTempCopy _ _ | OFree _ => True | _ => False end) ->
  apply_op st o = Ok st' -> NoDup (st_stream st').
Proof. intros st o st' H _ E. exact (apply_op_wf_stream st o st' H E). Qed.
Print Assumptions C04_attachment_ops_keep_stream_partial.

(* non-vacuity: 2 attached to 1 attached to 0; attaching 0 to 2 is refused (it would close the cycle 0 -> 2 -> 1 -> 0) *)
Example C04_example :
  match run_ops (st0 3 false) [OAppend 0%N 0; OAppend 1%N 1; OAppend 2%N 2; OAttach 1%N 0%N true; OAttach 2%N 1%N true; OAttach 0%N 2%N false] with
  | Ok st => match aget (st_attr st) 2%N with Some a => a_par a = Some 1%N | None => False end | Err _ => False end.
Proof. vm_compute. reflexivity. Qed.

(* REFUTED for the copying operations (the recorded findings c04:ghost-...): "every child of a slot of the stream is itself in the
   stream" does not survive TEMP_COPY + DELETE — the rule's garbage collection frees the temp copy and leaves the deleted original in
   its parent's child chain.  The witness is the operation history of the recorded finding (a slot attached, temp-copied, deleted;
   the copy freed), replayed on the engine from corpus/vmslot.txt; the model reproduces it. *)
Definition children_in_stream (st : sstate) : Prop :=
  forall p a k, In p (st_stream st) -> aget (st_attr st) p = Some a -> In k (a_kids a) -> In k (st_stream st).
Theorem C04_children_in_stream_refuted : exists n rtl ops st, run_ops (st0 n rtl) ops = Ok st /\ ~ children_in_stream st.
Proof.
  exists 3, false, [OAppend 0%N 0; OAppend 1%N 1; OAppend 2%N 2; OAttach 1%N 0%N true; OTempCopy 3%N 1%N; ODelete 1%N; OFree 3%N].
  eexists. split; [vm_compute; reflexivity|].
  intros H. specialize (H 0%N _ 1%N (or_introl eq_refl) eq_refl (or_introl eq_refl)).
  vm_compute in H. destruct H as [H|[H|H]]; try discriminate; contradiction.
Qed.
Print Assumptions C04_children_in_stream_refuted.
