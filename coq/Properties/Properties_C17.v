(* Properties_C17.v — the property theorems for C17 (the free-interval set searched by the collision fixer).
   Model: Model/ZonesModel.v; the limit clause is stated over the regenerated arithmetic of the collider (Gen/GenColl.v).  The
   resolved-verdict clause of C17 is decided by the oracle of tools/props/c17.py only; see DESIGN.md C.3. *)
From GR Require Import Base.Bytes Model.ZonesModel Proofs.ZonesProofs.
From Coq Require Import ZArith Lia.
Local Open Scope Z_scope.

(* After initialise and ANY sequence of exclude / exclude_with_margins / weighted operations the interval list is sorted,
   pairwise disjoint (touching at most), made of well-formed intervals and inside [_pos, _posm]; on a zone of non-zero width
   no interval is empty. *)
Theorem C17_zones_reachable : forall sd xmin xmax mlen mwt a0 ops, xmin <= xmax ->
  ZInv (fold_left zapply ops (initialise sd xmin xmax mlen mwt a0)).
Proof. intros. apply zones_reachable_inv, initialise_inv. assumption. Qed.
Print Assumptions C17_zones_reachable.

(* No operation ever adds a position: whatever is on offer after a sequence of operations was on offer before it. *)
Theorem C17_coverage_never_grows : forall ops z p, ZInv z -> zcovered (fold_left zapply ops z) p -> zcovered z p.
Proof.
  induction ops as [|o r IH]; intros z p H Hc; cbn [fold_left] in Hc; [exact Hc|].
  apply (zapply_cover z o p H). apply IH; [apply zapply_inv; exact H | exact Hc].
Qed.
Print Assumptions C17_coverage_never_grows.

(* A weighted insert changes costs only: exactly the same positions stay on offer. *)
Theorem C17_insert_keeps_positions : forall z e p, ZInv z -> (zcovered (insert z e) p <-> zcovered z p).
Proof. exact insert_cover. Qed.
Print Assumptions C17_insert_keeps_positions.

(* An excluded position is never offered again (zones of non-zero width). *)
Theorem C17_excluded_never_offered : forall z x xm ops p, ZInv z -> z_pos z < z_posm z -> x < p < xm ->
  ~ zcovered (fold_left zapply ops (exclude z x xm)) p.
Proof.
  intros z x xm ops p H Hnd Hp Hc. apply C17_coverage_never_grows in Hc; [|apply remove_inv; exact H].
  exact (proj2 (remove_cover H Hc) Hnd Hp).
Qed.
Print Assumptions C17_excluded_never_offered.

(* The unrestricted statement is REFUTED: on a zone of zero width Zones::remove is a no-op, the single position stays on
   offer inside an excluded range (DESIGN.md C.4, F24). *)
Theorem C17_excluded_zero_width_refuted : exists z x xm p, ZInv z /\ x < p < xm /\ zcovered (exclude z x xm) p.
Proof.
  exists (initialise false 5 5 0 0 0), 0, 10, 5. split; [apply initialise_inv; lia|]. split; [lia|].
  cbn. eexists. split; [left; reflexivity|]. cbn. lia.
Qed.
Print Assumptions C17_excluded_zero_width_refuted.

(* Whatever interval closest() settles on, and however the float division in test_position rounds, the position it
   reports lies inside that interval, hence on offer. *)
Theorem C17_closest_in_zone : forall zerox z e origin, ZInv z -> In e (z_excl z) -> zcovered z (test_position zerox e origin).
Proof.
  intros zerox z e origin H Hin. exists e. split; [exact Hin|]. apply test_position_inside, (ZInv_In z e H Hin).
Qed.
Print Assumptions C17_closest_in_zone.

Example C17_example :
  let z := fold_left zapply [ZExcludeM 10 20 0; ZWeighted 0 (-5) 15 1 2 3 4 0 7 false; ZExclude 40 45]
                     (initialise false (-50) 50 5 2 0) in
  map (fun e => (ex e, exm e, esm e)) (z_excl z) = [(-50, -5, 1); (-5, 5, 5); (5, 10, 7); (20, 25, 3); (25, 40, 1); (45, 50, 1)]
  /\ z_pos z < z_posm z.
Proof. vm_compute. split; reflexivity. Qed.

(* ---- the limit clause, over the definitions regenerated from ShiftCollider::initSlot / resolve (Gen/GenColl.v) *)
From GR Require Import Gen.GenColl Proofs.GenAgreeColl.
(* When the limit rectangle is well formed and the glyph currently sits inside it, every position inside the range of an axis
   maps, through resolve()'s own arithmetic, to a shift with offset + shift inside the limit rectangle (coordinates doubled so
   that the diagonal halves stay integral).  Together with C17_closest_in_zone: every shift the fixer computes respects the limit. *)
Theorem C17_limit_respected : forall Lbx Lby Ltx Lty ox oy sx sy, Lbx <= Ltx -> Lby <= Lty -> (Lbx <= ox + sx <= Ltx /\ Lby <= oy + sy <= Lty) ->
  (forall p, range_mn0 Lbx Lby Ltx Lty ox oy sx sy <= p <= range_mx0 Lbx Lby Ltx Lty ox oy sx sy -> inside2 Lbx Lby Ltx Lty ox oy (testp2_0 sx sy (p - tbase0 ox oy))) /\
  (forall p, range_mn1 Lbx Lby Ltx Lty ox oy sx sy <= p <= range_mx1 Lbx Lby Ltx Lty ox oy sx sy -> inside2 Lbx Lby Ltx Lty ox oy (testp2_1 sx sy (p - tbase1 ox oy))) /\
  (forall p, range_mn2 Lbx Lby Ltx Lty ox oy sx sy <= p <= range_mx2 Lbx Lby Ltx Lty ox oy sx sy -> inside2 Lbx Lby Ltx Lty ox oy (testp2_2 sx sy (p - tbase2 ox oy))) /\
  (forall p, range_mn3 Lbx Lby Ltx Lty ox oy sx sy <= p <= range_mx3 Lbx Lby Ltx Lty ox oy sx sy -> inside2 Lbx Lby Ltx Lty ox oy (testp2_3 sx sy (p - tbase3 ox oy))).
Proof.
  unfold inside2, range_mn0, range_mx0, range_shift0, tbase0, testp2_0, range_mn1, range_mx1, range_shift1, tbase1, testp2_1,
         range_mn2, range_mx2, range_shift2, tbase2, testp2_2, range_mn3, range_mx3, range_shift3, tbase3, testp2_3.
  cbn [fst snd]. repeat split; lia.
Qed.
Print Assumptions C17_limit_respected.

(* the four ranges are well formed zones (hypothesis xmin <= xmax of C17_zones_reachable) *)
Theorem C17_ranges_wellformed : forall Lbx Lby Ltx Lty ox oy sx sy, Lbx <= Ltx -> Lby <= Lty -> (Lbx <= ox + sx <= Ltx /\ Lby <= oy + sy <= Lty) ->
  range_mn0 Lbx Lby Ltx Lty ox oy sx sy <= range_mx0 Lbx Lby Ltx Lty ox oy sx sy /\ range_mn1 Lbx Lby Ltx Lty ox oy sx sy <= range_mx1 Lbx Lby Ltx Lty ox oy sx sy /\
  range_mn2 Lbx Lby Ltx Lty ox oy sx sy <= range_mx2 Lbx Lby Ltx Lty ox oy sx sy /\ range_mn3 Lbx Lby Ltx Lty ox oy sx sy <= range_mx3 Lbx Lby Ltx Lty ox oy sx sy.
Proof.
  unfold range_mn0, range_mx0, range_mn1, range_mx1, range_mn2, range_mx2, range_mn3, range_mx3, range_shift0, range_shift1, range_shift2, range_shift3. lia.
Qed.
Print Assumptions C17_ranges_wellformed.

(* The kerning path of the fixer (KernCollider, regenerated from src/Collider.cpp): for ANY needed kern, any offset carried over from earlier
   collision passes and any well-formed limit rectangle, the kern KernCollider::resolve returns keeps the accumulated offset inside the
   rectangle's x range. *)
Theorem C17_kern_limit_respected : forall Lbx Ltx ox needed, Lbx <= Ltx -> Lbx <= ox + GenColl.kern_result Lbx Ltx ox needed <= Ltx.
Proof. unfold GenColl.kern_result. lia. Qed.
Print Assumptions C17_kern_limit_respected.
