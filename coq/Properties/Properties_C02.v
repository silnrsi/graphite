(* Properties_C02.v — the property theorems for C02 (bounded work, bounded growth).
   Models: Model/LoopModel.v (control skeleton of the rule loop; insert budget), Model/RuleModel.v (the reference rule loop),
   Model/PosModel.v (depth cut-off of finalise), Model/SparseModel.v (glyph attribute store), Model/FsmModel.v (the state machine
   of a pass), the slot-map cursor of Proofs/GenAgreeLoop.v.  (The operand stack: Properties_C07.v.) *)
From GR Require Import Base.Bytes Model.LoopModel Proofs.LoopProofs Gen.GenLoop Proofs.GenAgreeLoop Model.SparseModel Proofs.SparseProofs Model.RuleModel Proofs.LoopBridge Model.PosModel Proofs.PosProofs.
From Coq Require Import List NArith ZArith Lia.
Import ListNotations.
Local Open Scope N_scope.

(* Every run of the rule loop of a pass that the acceptor admits — i.e. in which the measure "slots from the high-water mark
   to the end + remaining insert budget" never increases and decreases at every reset, which is what the loop's control
   guarantees and what the per-iteration hook monitors on the real engine — makes at most maxloop * (mu0 + 1) iterations. *)
Theorem C02_pass_loop_bounded : forall maxloop mu0 os, 1 <= maxloop -> laccept maxloop (mklst mu0 maxloop) os = true ->
  N.of_nat (length os) <= maxloop * (mu0 + 1).
Proof.
  intros maxloop mu0 os Hm Hacc. assert (Hok : lc_ok maxloop (mklst mu0 maxloop)) by (unfold lc_ok; cbn [l_lc]; lia).
  pose proof (loop_bounded Hok Hacc) as H. unfold phi in H. cbn [l_mu l_lc] in H. lia.
Qed.
Print Assumptions C02_pass_loop_bounded.

(* Whatever the passes insert and delete, the stream never holds more than 65 slots per initial slot, … *)
Theorem C02_growth_always_bounded : forall n0 os st', grun (n0 * growth_factor) (ginit n0) os = Some st' ->
  g_n st' <= n0 + n0 * growth_factor.
Proof.
  (* growth_factor in the statement is the constant of Gen/GenLoop.v (the later import); ginit and ginv are built on the model's *)
  change GenLoop.growth_factor with LoopModel.growth_factor. intros n0 os st' H. assert (Hi : ginv n0 (ginit n0)) by (unfold ginv, ginit; cbn [g_n g_b]; lia).
  destruct (grun_inv Hi H) as [Hb Hs]. lia.
Qed.
Print Assumptions C02_growth_always_bounded.

(* … and a run whose last end-of-pass test succeeds (the only way gr_make_seg returns a segment) leaves at most 64. *)
Theorem C02_growth_cap : forall n0 os st', grun (n0 * growth_factor) (ginit n0) (os ++ [GPassEnd]) = Some st' ->
  g_n st' <= growth_factor * n0.
Proof.
  intros n0 os st'. rewrite grun_app. destruct (grun _ (ginit n0) os) as [s|]; [|discriminate].
  cbn [grun]. destruct (gstep _ s GPassEnd) as [s1|] eqn:E; [|discriminate]. apply gstep_spec in E. destruct E as [E ->]. intros [= <-]. lia.
Qed.
Print Assumptions C02_growth_cap.

Theorem C02_inserts_bounded : forall n0 os st', grun (n0 * growth_factor) (ginit n0) os = Some st' ->
  N.of_nat (length (filter is_insert os)) + Z.to_N (g_b st') = n0 * growth_factor.
Proof. change GenLoop.growth_factor with LoopModel.growth_factor. intros n0 os st' H. apply grun_budget in H; cbn [ginit g_b] in *; lia. Qed.
Print Assumptions C02_inserts_bounded.

(* non-vacuity: a loop run with resets and counter expiry is accepted; a run with growth is accepted and one past the cap is not *)
Example C02_example_loop :
  laccept 2 (mklst 3 2) [mkobs 3 1 false true; mkobs 2 2 true true; mkobs 2 1 false true; mkobs 1 2 true true; mkobs 0 2 true false] = true.
Proof. vm_compute. reflexivity. Qed.
Example C02_example_growth :
  grun (1 * growth_factor) (ginit 1) (repeat GInsert 63 ++ [GPassEnd]) <> None /\ grun (1 * growth_factor) (ginit 1) (repeat GInsert 64) = None.
Proof. vm_compute. split; [discriminate | reflexivity]. Qed.

(* tie A: the constants of the models are the ones in the current source: the growth factor; the loop limit the loader enforces is >= 1
   (hypothesis of C02_pass_loop_bounded); the model's finalise fuel is the source's depth cut-off + 1 *)
Theorem C02_constants_tied : GenLoop.growth_factor = LoopModel.growth_factor /\ 1 <= GenLoop.min_max_loop /\ GenLoop.depth_cutoff + 1 = 101.
Proof. repeat split; discriminate. Qed.
Print Assumptions C02_constants_tied.

(* The recursion that positions a cluster is cut off along EVERY path, child links and sibling links alike: what finalise computes
   on an attachment tree is what it computes on the tree pruned 101 links from the base — no deeper slot is ever visited, so the
   native stack it uses does not grow with the size of the cluster. *)
Theorem C02_finalise_recursion_bounded : forall fuel k t isroot base cmin,
  finalise fuel k t isroot base cmin = finalise fuel k (prune fuel t) isroot base cmin /\ (link_depth (prune fuel t) <= S fuel)%nat.
Proof. split; [apply finalise_prune | apply prune_depth]. Qed.
Print Assumptions C02_finalise_recursion_bounded.
(* tie A: in the current source both recursive calls of Slot::finalise and of Slot::floodShift pass depth + 1, to the first child and to the
   next sibling alike, which is how Model/PosModel.v spends its fuel (with an increment of 0 on either call the cut-off would not bound the
   recursion: sibling lists are unbounded) *)
Theorem C02_recursion_depth_tied : GenLoop.fin_child_depth_inc = 1 /\ GenLoop.fin_sibling_depth_inc = 1 /\ GenLoop.flood_child_depth_inc = 1 /\ GenLoop.flood_sibling_depth_inc = 1.
Proof. repeat split; reflexivity. Qed.
Print Assumptions C02_recursion_depth_tied.

(* The machine's slot-map cursor stays inside SlotMap::m_slot_map for every sequence of NEXT / INSERT steps over a map of any admissible
   size: the extent of the array (regenerated from src/inc/Rule.h), the guard of NEXT (src/inc/opcodes.h) and MAX_SLOTS leave room for
   the position one past a full map, where the interpreter stores the current slot when the action ends. *)
Theorem C02_map_cursor_in_bounds : forall os size i j, size <= GenLoop.max_slots -> i <= size + 1 -> cur_run size i os = Some j ->
  j < GenLoop.max_slots + GenLoop.slot_map_extra.
Proof.
  induction os as [|o r IH]; intros size i j Hs Hi H; cbn [cur_run] in H.
  - injection H as <-. unfold GenLoop.max_slots, GenLoop.slot_map_extra in *. lia.
  - destruct (cur_step size i o) as [k|] eqn:E; [|discriminate]. exact (IH size k j Hs (cur_step_bound Hi E) H).
Qed.
Print Assumptions C02_map_cursor_in_bounds.

(* The glyph-attribute store (graphite2::sparse): whatever (key, value) pairs it was built from, operator[] reads inside its array
   for EVERY 16-bit key — the branch-free arithmetic never indexes outside the chunk table plus the packed values. *)
Theorem C02_sparse_lookup_in_bounds : forall ps s k, build ps = Some s -> lookup s k <> None.
Proof. intros ps s k H. exact (lookup_ok s k (build_ok ps s H)). Qed.
Print Assumptions C02_sparse_lookup_in_bounds.
Theorem C02_sparse_chunk_tied : GenLoop.sparse_chunk_bits = SparseModel.CHUNK.
Proof. reflexivity. Qed.
Print Assumptions C02_sparse_chunk_tied.

(* ---- the hypothesis of C02_pass_loop_bounded is not only monitored on the engine, it is PROVED of the reference semantics of the
   rule loop (Model/RuleModel.v: loop_step / loop_run — cursor adjustment, high-water mark, highpassed, loop counter, inserts paid
   from the budget, deletes — the executable definitions that tools/props/c06.py runs against the engine on compiled rule programs):
   for every rule set, stream, budget and both kinds of pass, the observation sequence of the loop is admitted by the acceptor. *)
Theorem C02_reference_loop_accepted : forall adv positioning maxloop rules, (1 <= maxloop)%nat -> forall fuel st, Inv maxloop st ->
  laccept (N.of_nat maxloop) (mklst (mu st) (N.of_nat (ls_lc st))) (loop_obs adv positioning maxloop rules fuel st) = true.
Proof. intros adv positioning maxloop rules _. apply loop_obs_accepted. Qed.
Print Assumptions C02_reference_loop_accepted.

(* Hence a pass over l with a_bud n inserts left makes at most maxloop * (|l| + a_bud n + 1) iterations, whatever the rules do ... *)
Theorem C02_reference_pass_iterations : forall adv positioning maxloop rules l n fuel, (1 <= maxloop)%nat -> l <> [] ->
  (length (loop_obs adv positioning maxloop rules fuel (st_init maxloop l (Some n))) <= maxloop * (length l + a_bud n + 1))%nat.
Proof. exact loop_iterations_bounded. Qed.
Print Assumptions C02_reference_pass_iterations.

(* ... and always stops by itself: with the fuel run_pass_b gives it, the loop ends with a null cursor (fuel is never what stops it). *)
Theorem C02_reference_pass_terminates : forall adv positioning maxloop rules l n, (1 <= maxloop)%nat -> l <> [] ->
  ls_s (loop_run adv positioning maxloop rules (pass_fuel_b maxloop l (Some n)) (st_init maxloop l (Some n))) = None.
Proof. exact pass_terminates. Qed.
Print Assumptions C02_reference_pass_terminates.

(* Shaping with the reference semantics either fails (budget exhausted, or a substitution pass ends above the cap) or returns at
   most 64 slots per input slot. *)
Theorem C02_reference_growth_cap : forall adv nsubst passes l out, run_passes_adj adv nsubst passes l = Some out -> (length out <= 64 * length l)%nat.
Proof. intros adv nsubst passes l out. apply run_passes_b_cap. lia. Qed.
Print Assumptions C02_reference_growth_cap.

(* non-vacuity: a rule that inserts in front of every 'a' and steps the cursor back onto it loops until the counter runs out at
   each high-water slot; the run is accepted, ends by itself, and with a second such pass the budget of a 1-slot text is used up *)
Example C02_example_reference :
  let adv := fun g : N => 462%Z in
  let r := mkrule0 0 [[67]]%N [[AInsert 67]] None (-1) in
  let st0 := st_init 5 [mkslot 67 462 0; mkslot 67 462 0] (Some (alloc0 2)) in
  Inv 5 st0
  /\ length (loop_obs adv false 5 [r] 1000 st0) = 10%nat
  /\ length (ls_l (loop_run adv false 5 [r] 1000 st0)) = 12%nat
  /\ option_map a_bud (ls_b (loop_run adv false 5 [r] 1000 st0)) = Some 118%nat
  /\ option_map (@length _) (run_passes_adj adv 1 [(8, [r])]%nat [mkslot 67 462 0]) = Some 9%nat
  /\ run_passes_adj adv 2 [(8, [r]); (8, [r])]%nat [mkslot 67 462 0] = None.
Proof. split; [apply st_init_inv; [lia|discriminate]|]. vm_compute. repeat split. Qed.

(* The finite state machine of a pass.  Whatever bytes a pass holds, the tables the loader builds from them when it accepts the pass
   (readRanges: glyph -> column; readStates: start states, transitions, the rules of each success state; the rule map) are well
   formed: every column is below numColumns, every start state and transition names a state, every rule entry names a rule of the
   pass and no state keeps more than MAX_RULES of them ... *)
From GR Require Import Base.Mem Model.FsmModel Proofs.FsmProofs.
Theorem C02_fsm_tables_well_formed : forall (l : bytes) f, read_fsm (mem_of_list l) = FOk f -> f_nrules f <> 0 -> fsm_wf f.
Proof. intros l f. apply read_fsm_wf. Qed.
Print Assumptions C02_fsm_tables_well_formed.
(* ... and over well-formed tables Pass::runFSM, started anywhere in ANY glyph string with any context, indexes no table outside its
   bounds, pushes at most MAX_SLOTS slots into the slot map (whose array has MAX_SLOTS + 2 entries) and accumulates at most MAX_RULES
   rules, each of them a rule of the pass; the limits are the source's (C02_fsm_limits_tied). *)
Theorem C02_fsm_run_in_bounds : forall f ctx gids, fsm_wf f ->
  exists ok n rs, run_fsm f ctx gids = Some (ok, n, rs) /\ (n <= FsmModel.MAX_SLOTS)%nat /\ (length rs <= FsmModel.MAX_RULES)%nat /\ Forall (fun r => r < f_nrules f) rs.
Proof. exact run_fsm_safe. Qed.
Print Assumptions C02_fsm_run_in_bounds.
Theorem C02_fsm_limits_tied : GenLoop.max_slots = N.of_nat FsmModel.MAX_SLOTS /\ GenLoop.max_rules = N.of_nat FsmModel.MAX_RULES.
Proof. split; reflexivity. Qed.
Print Assumptions C02_fsm_limits_tied.
(* non-vacuity: a compiled pass with the rules "5 6 -> ..." (sort key 2) and "5 -> ..." (sort key 1): its tables are accepted; from a slot
   holding 5 6 the machine matches both rules, the longer first, with three slots in the map; from 5 9 the second only; from 9 none *)
Example C02_example_fsm :
  exists f, read_fsm (mem_of_list [0; 1; 2; 0; 0; 2; 0; 0; 0; 0; 0; 162; 0; 0; 0; 162; 0; 0; 0; 162; 0; 0; 0; 0; 0; 3; 0; 2; 0; 2; 0; 2; 0; 2; 0; 0; 0; 0; 0; 0; 0; 5; 0; 5;
      0; 0; 0; 6; 0; 6; 0; 1; 0; 0; 0; 1; 0; 2; 0; 1; 0; 0; 0; 0; 0; 0; 0; 2; 0; 1; 0; 0; 0; 0; 0; 0; 0; 0; 0; 0; 0; 0; 0; 0; 5; 0; 9; 0; 1; 0; 0; 0; 0; 0; 2; 0; 28; 0; 25;
      25; 49; 28; 1; 25; 49]) = FOk f
  /\ f_nrules f = 2 /\ f_nglyphs f = 7
  /\ run_fsm f 0 [5; 6; 5; 9] = Some (true, 3%nat, [0; 1]) /\ run_fsm f 0 [5; 9] = Some (true, 2%nat, [1]) /\ run_fsm f 0 [9] = Some (true, 1%nat, []).
Proof. eexists. split; [vm_compute; reflexivity|]. vm_compute. repeat split. Qed.
