(* Properties_C10.v — the property theorems for C10 (face options change resource behaviour, never results).
   Model: Model/MemoModel.v (glyph cache, lazily filled or preloaded).  The direct and the cached character map agree:
   Properties_C13.v. *)
From GR Require Import Base.Bytes Model.MemoModel Proofs.MemoProofs.
From Coq Require Import NArith.
Local Open Scope N_scope.

(* gr_face_preloadGlyphs: a preloaded and a lazily filled glyph cache answer every history of lookups alike. *)
Theorem C10_preload_eq_lazy : forall (V : Type) (load : N -> option V) n cl cp gids,
  init_lazy V load n = Some cl -> init_preload V load n = Some cp -> fst (run V load n cl gids) = fst (run V load n cp gids).
Proof.
  intros V load n cl cp gids Hl Hp.
  rewrite (proj1 (run_correct gids (init_lazy_inv Hl))), (proj1 (run_correct gids (proj1 (init_preload_inv Hp)))).
  reflexivity.
Qed.
Print Assumptions C10_preload_eq_lazy.

Theorem C10_both_are_spec : forall (V : Type) (load : N -> option V) n c gids, init_lazy V load n = Some c \/ init_preload V load n = Some c ->
  fst (run V load n c gids) = map (spec V load n) gids.
Proof.
  intros V load n c gids [H|H].
  - exact (proj1 (run_correct gids (init_lazy_inv H))).
  - exact (proj1 (run_correct gids (proj1 (init_preload_inv H)))).
Qed.
Print Assumptions C10_both_are_spec.

(* preloading fails exactly when some glyph cannot be read; the lazy face then still answers (with glyph 0 standing in): the
   option changes whether the face is made, never what a made face answers — this is the "well-formed font" proviso of C10 *)
Example C10_example :
  let load := fun g => if g =? 2 then None else if g <? 4 then Some (g + 100) else None in
  init_preload N load 4 = None /\
  match init_lazy N load 4 with Some c => fst (run N load 4 c [2; 1]) = [Some 100; Some 101] | None => False end.
Proof. vm_compute. split; reflexivity. Qed.
