(* Properties_C05.v — the property theorems for C05 (characters and slots stay validly associated).
   Models: Model/StreamModel.v (associations through every stream operation) and Model/UtfModel.v (char-infos of the input). *)
From GR Require Import Base.Bytes Model.StreamModel Proofs.StreamProofs Model.UtfModel Proofs.UtfGeneric Proofs.UtfProofs.
From Coq Require Import ZArith Lia.
Local Open Scope Z_scope.

(* For a segment of n > 0 characters, after ANY sequence of primitive operations (insertions, deletions, copies, ASSOC with
   arbitrary references, reorderings, attachments, associateChars), every slot's before, after and original are char-info
   indices in [0, n). *)
Theorem C05_slot_ranges : forall nchars rtl ops st, 0 < nchars -> Forall (op_ok nchars) ops ->
  run_ops (st0 nchars rtl) ops = Ok st ->
  forall s a, aget (st_attr st) s = Some a -> 0 <= a_before a < nchars /\ 0 <= a_after a < nchars /\ 0 <= a_orig a < nchars.
Proof.
  intros nchars rtl ops st Hn Hops H.
  assert (R0 : ranges_ok (st0 nchars rtl)) by (split; [cbn; lia|intros ? ? E; discriminate E]).
  destruct (run_ops_ranges ops _ st R0 Hops H) as [[_ R] N]. rewrite N in R. exact R.
Qed.
Print Assumptions C05_slot_ranges.

(* the char-infos of the input: characters in order with their code-unit offsets, one per character consumed (canonical text,
   any nChars) — from the text-reading model shared with C11 / C12 *)
Theorem C05_cinfo_chars_utf8 : forall us n pos rest, Forall (fun u => ((u < 0x110000)%N /\ ~ (0xD800 <= u <= 0xDFFF)%N) /\ u <> 0%N) us ->
  read_text get8 n (enc_all put8 us ++ 0%N :: rest) pos = Some (firstn n (combine us (bases put8 pos us))).
Proof. exact (read_text_exact get8_nul_zero get8_put8). Qed.
Print Assumptions C05_cinfo_chars_utf8.

(* PARTIAL: not proved — that every character index is covered by some slot's [before, after] and that every char-info's
   before/after are slot indices in [0, n_slots) after associateChars.  The model computes both (assoc_pass1/2) and they are
   compared with the implementation on every run; the implementation-side oracle evaluates the two clauses directly. *)

(* After associateChars a char-info never has just one side set: a character whose slot was deleted without ASSOC is reached
   from one neighbouring slot only, and takes both its before and after from it (the loop added by the fix recorded in
   known_findings.txt; without it such a character keeps before = -1). *)
Theorem C05_cinfo_sides_together : forall st st', do_assocchars st = Ok st' ->
  forall c, In c (st_cinfo st') -> (c_before c < 0 <-> c_after c < 0).
Proof.
  unfold do_assocchars. intros st st'. destruct (assoc_pass2 _ _ _ _) as [m2 cs2]. intros H. injection H as <-.
  intros c Hin. apply in_map_iff in Hin. destruct Hin as [c0 [<- _]]. apply ci_both_sides_spec.
Qed.
Print Assumptions C05_cinfo_sides_together.

(* two characters, the second slot deleted without ASSOC: both sides of char 1 are slot 0 *)
Example C05_deleted_without_assoc :
  match run_ops (st0 2 false) [OAppend 0%N 0; OAppend 1%N 1; ODelete 1%N; OAssocChars] with
  | Ok st => map (fun c => (c_before c, c_after c)) (st_cinfo st) = [(0, 0); (0, 0)] | Err _ => False end.
Proof. vm_compute. reflexivity. Qed.

Example C05_example :
  match run_ops (st0 2 false) [OAppend 0%N 0; OAppend 1%N 1; OInsert 2%N (Some 1%N); OAssoc 2%N [Some 0%N; Some 1%N]; OAssocChars] with
  | Ok st => map (fun c => (c_before c, c_after c)) (st_cinfo st) = [(0, 1); (1, 2)] | Err _ => False end.
Proof. vm_compute. reflexivity. Qed.

(* tie A for the representation the theorems above assume: associations are character / slot INDICES kept as unbounded numbers in the
   models; in the code they live in fields whose narrowest width is regenerated from src/inc/Slot.h and src/inc/CharInfo.h -- wide enough
   that every index below 2^31 (the accessors return int) is stored and read back unchanged, whatever the length of the text. *)
From GR Require Import Gen.GenAssoc.
Theorem C05_association_fields_hold_every_index : forall i : N, (i < 2 ^ 31)%N -> (i mod 2 ^ GenAssoc.assoc_index_bits = i)%N /\ (31 < GenAssoc.assoc_index_bits)%N.
Proof.
  intros i H. unfold GenAssoc.assoc_index_bits. split; [apply N.mod_small; lia | lia].
Qed.
Print Assumptions C05_association_fields_hold_every_index.
