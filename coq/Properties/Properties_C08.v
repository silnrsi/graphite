(* Properties_C08.v — the property theorems for C08 (shaping is history independent).
   Model: Model/MemoModel.v — the only state a face keeps between calls is the lazily filled glyph cache (and the lazily created
   name table, a one-cell instance of the same scheme); segments, slot maps and VM state are created per call.  The table
   reader is an oracle: any pure function of the immutable tables. *)
From GR Require Import Base.Bytes Model.MemoModel Proofs.MemoProofs.
From Coq Require Import NArith.
Local Open Scope N_scope.

(* Whatever was looked up before, a lookup returns what it returns on the freshly made face. *)
Theorem C08_history_independent : forall (V : Type) (load : N -> option V) n c hist probe, Inv V load n c ->
  fst (glyph V load n probe (snd (run V load n c hist))) = fst (glyph V load n probe c).
Proof.
  intros V load n c hist probe Hi. destruct (run_correct hist Hi) as [_ [Hi2 _]].
  rewrite (proj1 (glyph_correct probe Hi2)), (proj1 (glyph_correct probe Hi)). reflexivity.
Qed.
Print Assumptions C08_history_independent.

(* Every lookup of every history is the cache-free function [spec]; the face keeps reporting the same (the invariant is kept). *)
Theorem C08_lookups_are_pure : forall (V : Type) (load : N -> option V) n gids c, Inv V load n c ->
  fst (run V load n c gids) = map (spec V load n) gids /\ Inv V load n (snd (run V load n c gids)) /\ (gc_loader V c = false -> snd (run V load n c gids) = c).
Proof. intros V load n gids c. exact (run_correct gids). Qed.
Print Assumptions C08_lookups_are_pure.

Theorem C08_fresh_face_inv : forall (V : Type) (load : N -> option V) n c, init_lazy V load n = Some c \/ init_preload V load n = Some c -> Inv V load n c.
Proof. intros V load n c [H|H]; [exact (init_lazy_inv H) | exact (proj1 (init_preload_inv H))]. Qed.
Print Assumptions C08_fresh_face_inv.

Example C08_example :
  let load := fun g => if g <? 5 then Some (g * 10 + 1) else None in
  match init_lazy N load 5 with
  | Some c => fst (run N load 5 c [3; 9; 3; 0; 4]) = [Some 31; Some 1; Some 31; Some 1; Some 41] /\ gc_slots N (snd (run N load 5 c [3; 9; 3; 0; 4])) = [Some 1; None; None; Some 31; Some 41]
  | None => False
  end.
Proof. vm_compute. split; reflexivity. Qed.
