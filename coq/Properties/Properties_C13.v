(* Properties_C13.v — the property theorems for C13 (cmap lookup, direct and cached).
   Model: Model/CmapModel.v, hand-written after src/TtfUtil.cpp (cmap functions) and src/CmapCache.cpp. *)
From GR Require Import Base.MemFacts Model.CmapModel Proofs.CmapCache Proofs.CmapSafe Proofs.Cmap12Agree Proofs.Cmap4Agree Proofs.CmapWhole.
From Coq Require Import FMapPositive.
Local Open Scope N_scope.

(* The cache fill loop terminates within its fuel for ANY iteration / lookup functions (hence for any table bytes):
   the code point strictly increases up to the limit. *)
Theorem C13_cache_fill_terminates : forall nextf lookf limit m, limit <= 0x10FFFF ->
  cache_subtable nextf lookf limit m <> Some None.
Proof. exact cache_subtable_terminates. Qed.
Print Assumptions C13_cache_fill_terminates.

(* cached = direct on every code point up to the limit, and nothing above the limit is touched — the fill loop alone, stated over
   its interface with NextCodepoint / Lookup (the hypotheses, in order): the direct lookup is the keyless lookup; a range key handed
   out with a code point is good for that code point; every code point NextCodepoint steps over is unmapped; the iteration does not
   trap; the cache starts empty where nothing is mapped; the first step is good.  For CmapSubtable4/12NextCodepoint + Lookup on
   well-formed subtables these facts are proved in Proofs/CmapSeg.v (once, over sorted segments, with a key invariant stronger than
   [good]) from what Proofs/Cmap4Agree.v and Proofs/Cmap12Agree.v supply per format; C13_cached_eq_direct below puts loop and
   subtables together. *)
Theorem C13_cached_eq_direct_partial :
  forall (nextf : N -> N -> option (N * N)) (lookf : N -> N -> option N) (limit : N) (dl : N -> N),
    (forall c, c <= limit -> lookf c 0 = Some (dl c)) ->
    (forall c key n k, 0 < c -> c < limit -> good lookf dl c key -> nextf c key = Some (n, k) -> c < n -> n <= limit -> good lookf dl n k) ->
    (forall c key n k, 0 < c -> c < limit -> good lookf dl c key -> nextf c key = Some (n, k) ->
                       forall d, c < d -> d < n -> d <= limit -> dl d = 0) ->
    (forall c key, 0 < c -> c < limit -> good lookf dl c key -> nextf c key <> None) ->
    forall m0, (forall d, d <= limit -> dl d = 0 -> cget m0 d = 0) ->
    (forall c0 k0, nextf 0 0 = Some (c0, k0) -> (c0 <= limit -> good lookf dl c0 k0) /\ (forall d, d < c0 -> d <= limit -> dl d = 0)) ->
    forall m, limit <= 0x10FFFF -> cache_subtable nextf lookf limit m0 = Some (Some m) ->
    (forall d, d <= limit -> cget m d = dl d) /\ (forall d, limit < d -> cget m d = cget m0 d).
Proof.
  intros nextf lookf limit dl Hdl Hg Hs Ht m0 Hm0 Hf m _.
  exact (cache_subtable_agrees_G nextf lookf limit dl (good lookf dl) (fun _ _ _ H => H) Hdl Hg Hs Ht m0 Hm0 Hf m).
Qed.
Print Assumptions C13_cached_eq_direct_partial.

(* FULL: the cached and the direct lookup agree on EVERY code point.  For every table (arbitrary bytes) whose BMP subtable
   (format 4) and, when present, supplementary subtable (format 12) CheckCmapSubtable4/12 accept and whose segments / groups are
   well formed in the OpenType sense (wf4: start <= end, sorted, disjoint, last end 0xFFFF; wf12: start <= end <= 0x10FFFF,
   sorted, disjoint), building the cache (gr_face_cacheCmap) succeeds — no trap, terminates — and the cached lookup returns what
   the direct lookup returns: format 4 below U+10000, format 12 above, 0 above U+FFFF on a BMP-only face. *)
Theorem C13_cached_eq_direct : forall (l : bytes) ob smp, let t := mem_of_list l in tlen t < S64 ->
  check4 t (Some ob) = Some true -> wf4 t ob -> smp_ok t smp ->
  exists cc, cached_build t (Some ob) smp = Some (Some cc) /\
             forall c, c <= 0x10FFFF -> direct t (Some ob) smp c = Some (cached cc (match smp with Some _ => false | None => true end) c).
Proof. intros l ob smp. exact (cached_eq_direct (mem_of_list l) ob smp (mem_of_list_wf l)). Qed.
Print Assumptions C13_cached_eq_direct.

(* format 4 alone *)
Theorem C13_cached4_eq_direct : forall (l : bytes) o, let t := mem_of_list l in tlen t < S64 -> check4 t (Some o) = Some true -> wf4 t o ->
  exists m, cache_subtable (next4 t o) (lookup4 t o) 0xFFFF (PositiveMap.empty N) = Some (Some m) /\
            forall d, d <= 0xFFFF -> lookup4 t o d 0 = Some (cget m d).
Proof. intros l o. exact (cached4_eq_direct_checked (mem_of_list l) o (mem_of_list_wf l)). Qed.
Print Assumptions C13_cached4_eq_direct.

(* FULL for format 12: on every subtable that CheckCmapSubtable12 accepts and whose groups are well formed in the OpenType sense
   (start <= end <= 0x10FFFF, sorted, disjoint: wf12), filling the cache through NextCodepoint + keyed Lookup does not trap,
   terminates, and the cache holds for EVERY code point up to 0x10FFFF exactly what the direct (keyless) lookup returns. *)
Theorem C13_cached12_eq_direct : forall (l : bytes) o, let t := mem_of_list l in tlen t < S64 -> check12 t (Some o) = Some true -> wf12 t o ->
  exists m, cache_subtable (next12 t o) (lookup12 t o) 0x10FFFF (PositiveMap.empty N) = Some (Some m) /\
            forall d, d <= 0x10FFFF -> lookup12 t o d 0 = Some (cget m d).
Proof. intros l o. exact (cached12_eq_direct_checked (mem_of_list l) o (mem_of_list_wf l)). Qed.
Print Assumptions C13_cached12_eq_direct.

(* non-vacuity: a two-group format-12 subtable (U+10000..U+10002 -> 5.., U+1F600..U+1F601 -> 9..) is accepted and well formed *)
Definition ex_cmap12 : bytes :=
  [0;12; 0;0; 0;0;0;40; 0;0;0;0; 0;0;0;2;  0;1;0;0; 0;1;0;2; 0;0;0;5;  0;1;0xF6;0; 0;1;0xF6;1; 0;0;0;9].
Example C13_example12 : check12 (mem_of_list ex_cmap12) (Some 0) = Some true /\ wf12 (mem_of_list ex_cmap12) 0 /\
  lookup12 (mem_of_list ex_cmap12) 0 0x1F601 0 = Some 10.
Proof.
  split; [vm_compute; reflexivity|]. split; [|vm_compute; reflexivity].
  exists 2. split; [vm_compute; reflexivity|]. split; [lia|]. split.
  - intros i Hi. assert (H : i = 0 \/ i = 1) by lia. destruct H as [-> | ->]; vm_compute; split; discriminate.
  - intros i j Hij Hj. assert (H : i = 0 /\ j = 1) by lia. destruct H as [-> ->]. vm_compute. reflexivity.
Qed.

(* For ARBITRARY table bytes: once CheckCmapSubtable12 / CheckCmapSubtable4 accepted a subtable, the lookups never read
   outside the table, for every code point and every (in-range) key. *)
Theorem C13_lookup12_arbitrary_bytes_safe : forall (l : bytes) o, let t := mem_of_list l in tlen t < S64 -> check12 t (Some o) = Some true ->
  forall c key, lookup12 t o c key <> None.
Proof. intros l o. exact (lookup12_safe (mem_of_list l) o (mem_of_list_wf l)). Qed.
Print Assumptions C13_lookup12_arbitrary_bytes_safe.

Theorem C13_lookup4_arbitrary_bytes_safe : forall (l : bytes) o, let t := mem_of_list l in tlen t < S64 -> check4 t (Some o) = Some true ->
  forall c key sc, w4 t o 3 = Some sc -> key < sc / 2 -> lookup4 t o c key <> None.
Proof. intros l o. exact (lookup4_safe (mem_of_list l) o (mem_of_list_wf l)). Qed.
Print Assumptions C13_lookup4_arbitrary_bytes_safe.

(* non-vacuity: a two-segment format-4 subtable ([0x41..0x43] delta 3, [0xFFFF] delta 1), direct and cached *)
Definition ex_cmap : mem := mem_of_list
  [0;0; 0;1; 0;3; 0;1; 0;0;0;12;
   0;4; 0;32; 0;0; 0;4; 0;0; 0;0; 0;0;  0;0x43; 0xFF;0xFF; 0;0;  0;0x41; 0xFF;0xFF;  0;3; 0;1;  0;0; 0;0].
Example C13_example :
  bmp_subtable ex_cmap = Some (Some 12) /\ check4 ex_cmap (Some 12) = Some true /\
  direct ex_cmap (Some 12) None 0x42 = Some 0x45 /\ direct ex_cmap (Some 12) None 0x44 = Some 0 /\
  (match cached_build ex_cmap (Some 12) None with Some (Some m) => cached m true 0x42 = 0x45 /\ cached m true 0xFFFF = 0 | _ => False end).
Proof. vm_compute. repeat split; reflexivity. Qed.

(* non-vacuity of wf4: the two-segment subtable of C13_example is well formed *)
Example C13_example_wf4 : wf4 ex_cmap 12 /\ smp_ok ex_cmap None.
Proof.
  split; [|exact I]. exists 4. split; [vm_compute; reflexivity|]. split; [|split].
  - intros i Hi. assert (H : i = 0 \/ i = 1) by (change (4 / 2) with 2 in Hi; lia). destruct H as [-> | ->]; vm_compute; discriminate.
  - intros i j Hij Hj. assert (H : i = 0 /\ j = 1) by (change (4 / 2) with 2 in Hj; lia). destruct H as [-> ->]. vm_compute. reflexivity.
  - vm_compute. reflexivity.
Qed.

(* ---- "... falling back to the Silf pseudo-glyph map" (Model/PseudoModel.v: Silf::findPseudo and its two callers, the text reader that
   gives every slot its initial glyph and gr_face_is_char_supported; their shape is regenerated from the source, Gen/GenPseudo.v).
   The cmap's answer stands whenever it is not 0; only then is the pseudo map asked ... *)
From GR Require Import Model.PseudoModel Proofs.PseudoProofs Gen.GenPseudo.
Theorem C13_pseudo_only_when_unmapped : forall g pm u, (g <> 0 -> initial_glyph g pm u = g) /\ initial_glyph 0 pm u = find_pseudo pm u.
Proof. intros g pm u. split; [|reflexivity]. intros H. unfold initial_glyph. destruct (N.eqb_spec g 0); [contradiction|reflexivity]. Qed.
Print Assumptions C13_pseudo_only_when_unmapped.
(* ... which answers with the glyph listed for that code point -- ANY code point, of any plane -- and with 0 for one it does not list ... *)
Theorem C13_pseudo_lookup : forall pm u, (forall g, NoDup (map fst pm) -> In (u, g) pm -> find_pseudo pm u = g) /\ (~ In u (map fst pm) -> find_pseudo pm u = 0).
Proof. split; [intros g; apply find_pseudo_found | apply find_pseudo_absent]. Qed.
Print Assumptions C13_pseudo_lookup.
(* ... so a character is supported exactly when the cmap maps it or the pseudo map gives it a glyph. *)
Theorem C13_supported_iff : forall g pm u, char_supported g pm u = true <-> (g <> 0 \/ find_pseudo pm u <> 0).
Proof.
  intros g pm u. unfold char_supported, initial_glyph. rewrite negb_true_iff, N.eqb_neq.
  destruct (N.eqb_spec g 0) as [->|Hne]; tauto.
Qed.
Print Assumptions C13_supported_iff.
(* "... and hence the initial glyph of each slot": the text reader (its loop regenerated as a whole, Gen/GenPseudo.v) makes one slot per
   character before the first NUL -- a prefix of the text, none of them NUL -- and the i-th slot starts with the initial glyph of the i-th. *)
Theorem C13_initial_glyph_of_each_slot : forall cmapf pm us,
  (exists rest, us = upto_nul us ++ rest /\ (rest = [] \/ hd 1 rest = 0)) /\ Forall (fun u => u <> 0) (upto_nul us) /\
  length (text_glyphs cmapf pm us) = length (upto_nul us) /\
  (forall i u, nth_error (upto_nul us) i = Some u -> nth_error (text_glyphs cmapf pm us) i = Some (initial_glyph (cmapf u) pm u)).
Proof. split; [apply upto_nul_prefix|]. split; [apply upto_nul_nonzero|]. apply text_glyphs_spec. Qed.
Print Assumptions C13_initial_glyph_of_each_slot.
(* tie A: the key of a pseudo entry is wide enough for every Unicode scalar value (nothing is truncated before the comparison) *)
Theorem C13_pseudo_key_tied : forall u, u < 0x110000 -> u mod 2 ^ GenPseudo.pseudo_uid_bits = u.
Proof. intros u H. unfold GenPseudo.pseudo_uid_bits. apply N.mod_small. lia. Qed.
Print Assumptions C13_pseudo_key_tied.
Example C13_example_pseudo : let pm := [(0xE01, 218); (0xF0000, 66); (0x10FFFF, 7)] in
  initial_glyph 0 pm 0xF0000 = 66 /\ initial_glyph 0 pm 0x10FFFF = 7 /\ initial_glyph 5 pm 0xF0000 = 5 /\ char_supported 0 pm 0xF0001 = false /\ NoDup (map fst pm).
Proof. cbn. repeat split; repeat constructor; cbn; intuition discriminate. Qed.
