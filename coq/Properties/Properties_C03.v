(* Properties_C03.v — the property theorems for C03 (well-formed glyph stream).  Model: Model/StreamModel.v, the
   list-level model of every primitive operation that edits the stream; the harness's abstraction function (walk of the real
   next/prev/first/last links with consistency checks) relates the pointer structure to the list on every snapshot. *)
From GR Require Import Base.Bytes Model.StreamModel Proofs.StreamProofs.
From Coq Require Import ZArith Permutation.
Local Open Scope Z_scope.

(* Whatever sequence of primitive operations rules, bytecode and text drive (append, INSERT, DELETE, PUT_COPY, TEMP_COPY,
   free, attach / detach, ASSOC, reversal, associateChars, linkClusters), the stream never contains a slot twice. *)
Theorem C03_stream_no_repeats : forall nchars rtl ops st, run_ops (st0 nchars rtl) ops = Ok st -> NoDup (st_stream st).
Proof. intros nchars rtl ops st. apply run_ops_wf_stream. constructor. Qed.
Print Assumptions C03_stream_no_repeats.

Theorem C03_step_preserves : forall st o st', NoDup (st_stream st) -> apply_op st o = Ok st' -> NoDup (st_stream st').
Proof. exact apply_op_wf_stream. Qed.
Print Assumptions C03_step_preserves.

(* reverseSlots (marks stay after their bases) keeps exactly the same slots: the slot count and the set of indices survive *)
Theorem C03_reverse_same_slots : forall st marks st', apply_op st (OReverse marks) = Ok st' -> Permutation (st_stream st') (st_stream st).
Proof. intros st marks st' H. apply do_reverse_ok in H. destruct H as [->|[-> El]]; [reflexivity|apply rev_keep_marks_perm; exact El]. Qed.
Print Assumptions C03_reverse_same_slots.

(* PARTIAL: not proved here — that gr_slot_index values form a permutation of 0..n-1 (associateChars numbers the stream in
   order before any final reversal), finiteness of positions, and the glyph-id clause; these are checked on the implementation by
   the structural oracle and, for indices, by the correspondence (the model computes them and they are compared). *)

Example C03_example :
  match run_ops (st0 3 false) [OAppend 0%N 0; OAppend 1%N 1; OAppend 2%N 2; OInsert 3%N (Some 1%N); ODelete 2%N; OReverse [false; false; true]] with
  | Ok st => st_stream st = [3%N; 1%N; 0%N] | Err _ => False end.
Proof. vm_compute. reflexivity. Qed.
