(* Properties_C15.v — the property theorems for C15 (final positions are the design-unit positions times the scale).
   Model: Model/PosModel.v (Slot::finalise + the base loop of Segment::positionSlots, exact arithmetic).
   The scale ranges over the positive integers here: on such scales (ppm a multiple of the units per em) every float operation
   of the C++ is exact, so the model equals the implementation digit for digit (correspondence check); single-precision
   rounding at the other sizes is outside the model and bounded by the differential oracle of tools/props/c15.py. *)
From GR Require Import Base.Bytes Model.PosModel Proofs.PosProofs.
From Coq Require Import ZArith.
Local Open Scope Z_scope.

(* One cluster: every position, the advance result and the cluster minimum that Slot::finalise computes at scale k from a
   base point k*b are k times what it computes in design units from b — for every attachment tree, every depth cut-off. *)
Theorem C15_finalise_linear : forall fuel k, 0 < k -> forall t isroot base cmin,
  finalise fuel k t isroot (vscale k base) (k * cmin) = out3 k (finalise fuel 1 t isroot base cmin).
Proof. exact finalise_homogeneous. Qed.
Print Assumptions C15_finalise_linear.

(* The whole segment: every slot origin and the segment advance at scale k are k times the design-unit ones. *)
Theorem C15_segment_linear : forall k, 0 < k -> forall bases,
  position_bases k bases (0, 0) = (let r := position_bases 1 bases (0, 0) in (vscale k (fst r), pscale k (snd r))).
Proof. intros k Hk bases. rewrite <- (position_bases_homogeneous k Hk bases (0, 0)), vscale0. reflexivity. Qed.
Print Assumptions C15_segment_linear.

(* Which slots are positioned, and in which order, is independent of the scale. *)
Theorem C15_structure_scale_free : forall k, 0 < k -> forall bases,
  map fst (snd (position_bases k bases (0, 0))) = map fst (snd (position_bases 1 bases (0, 0))).
Proof. intros k Hk bases. rewrite (C15_segment_linear k Hk). cbn [snd]. unfold pscale. rewrite map_map. reflexivity. Qed.
Print Assumptions C15_structure_scale_free.

Theorem C15_sizes_proportional : forall k j, 0 < k -> 0 < j -> forall bases,
  let rk := position_bases k bases (0, 0) in let rj := position_bases j bases (0, 0) in
  vscale j (fst rk) = vscale k (fst rj) /\ pscale j (snd rk) = pscale k (snd rj).
Proof.
  intros k j Hk Hj bases. rewrite (C15_segment_linear k Hk), (C15_segment_linear j Hj). cbn [fst snd].
  rewrite !vscale_vscale, !pscale_pscale. rewrite (Z.mul_comm j k). split; reflexivity.
Qed.
Print Assumptions C15_sizes_proportional.

(* non-vacuity: a base with a negative-offset attached mark (flood shift branch) and a sibling *)
Example C15_example :
  let m1 := BNode (mksp 1 (-900) 20 0 0 (-300) 400 false) Leaf (BNode (mksp 2 10 0 200 0 50 (-60) true) Leaf Leaf) in
  let b0 := BNode (mksp 0 0 0 600 0 0 0 true) m1 Leaf in
  position_bases 3 [b0; BNode (mksp 3 5 0 500 0 0 0 true) Leaf Leaf] (0, 0)
  = (let r := position_bases 1 [b0; BNode (mksp 3 5 0 500 0 0 0 true) Leaf Leaf] (0, 0) in (vscale 3 (fst r), pscale 3 (snd r)))
  /\ snd (position_bases 1 [b0] (0, 0)) <> [].
Proof. vm_compute. split; [reflexivity | discriminate]. Qed.

(* tie A for the accessor: what gr_slot_advance_X / gr_slot_advance_Y return with an unhinted font (definitions regenerated from their
   bodies in src/gr_slot.cpp) is the value with font = NULL multiplied by the font's scale -- whether or not the caller passes the face. *)
From GR Require Import Gen.GenSlotAdv.
Theorem C15_slot_advance_scales : forall res scale face_given, GenSlotAdv.slot_advance_unhinted res scale face_given = (scale * GenSlotAdv.slot_advance_nofont res)%Z.
Proof. intros res scale [|]; unfold GenSlotAdv.slot_advance_unhinted, GenSlotAdv.slot_advance_nofont; apply Z.mul_comm. Qed.
Print Assumptions C15_slot_advance_scales.
