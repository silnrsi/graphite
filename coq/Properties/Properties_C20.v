(* Properties_C20.v — the property theorems for C20 (tag/string conversions), each followed by
   Print Assumptions.  Models: Model/TagModel.v (hand-written after
   src/gr_face.cpp), tied to the source by Gen/GenTag.v (tie A) and the correspondence harness (tie B). *)
From GR Require Import Base.Bytes Model.TagModel Proofs.TagProofs Gen.GenTag.
Local Open Scope N_scope.

(* gr_str_to_tag on the region holding exactly the C string and its terminator: no trap (no read beyond
   the NUL) and the result is the big-endian tag of the first min(4,len) characters, zero padded. *)
Theorem C20_str_to_tag : forall s, nonzero_bytes s -> str_to_tag (s ++ [0]) = Some (tag_spec s).
Proof. intros s. apply str_to_tag_correct. Qed.
Print Assumptions C20_str_to_tag.

Theorem C20_str_to_tag_ignores_tail : forall s rest, nonzero_bytes s ->
  str_to_tag (s ++ 0 :: rest) = Some (tag_spec s).
Proof. exact str_to_tag_correct. Qed.
Print Assumptions C20_str_to_tag_ignores_tail.

(* gr_tag_to_str stores exactly at offsets 0..3, the four tag bytes, most significant first *)
Theorem C20_tag_to_str : forall t,
  tag_to_str t = [ (0%nat, byte3 t); (1%nat, byte2 t); (2%nat, byte1 t); (3%nat, byte0 t) ].
Proof. exact tag_to_str_bytes. Qed.
Print Assumptions C20_tag_to_str.

Theorem C20_tag_to_str_nothing_after : forall t a b c d rest,
  apply_writes (a :: b :: c :: d :: rest) (tag_to_str t) = Some (byte3 t :: byte2 t :: byte1 t :: byte0 t :: rest).
Proof. intros. rewrite tag_to_str_bytes. reflexivity. Qed.
Print Assumptions C20_tag_to_str_nothing_after.

(* inverse on four-character tags, into a buffer of exactly four bytes *)
Theorem C20_inverse_str : forall c0 c1 c2 c3 buf4, nonzero_bytes [c0; c1; c2; c3] -> length buf4 = 4%nat ->
  exists t, str_to_tag ([c0; c1; c2; c3] ++ [0]) = Some t /\ apply_writes buf4 (tag_to_str t) = Some [c0; c1; c2; c3].
Proof.
  intros c0 c1 c2 c3 buf4 Hs Hl. exists (tag_spec [c0; c1; c2; c3]). split; [apply str_to_tag_correct; exact Hs|].
  destruct buf4 as [|x0 [|x1 [|x2 [|x3 [|? ?]]]]]; try discriminate Hl.
  rewrite !nonzero_bytes_cons in Hs. apply tag_to_str_be32; lia.
Qed.
Print Assumptions C20_inverse_str.

Theorem C20_inverse_tag : forall s, nonzero_bytes s -> (length s <= 4)%nat ->
  let t := be32_of (pad_to4 0 s) in
  exists out, apply_writes [0; 0; 0; 0] (tag_to_str t) = Some out /\ str_to_tag (out ++ [0]) = Some t.
Proof. exact inverse_tag. Qed.
Print Assumptions C20_inverse_tag.

(* space-padded and zero-padded forms of the same short tag normalise to the same value (zeropad is what
   gr_face_find_fref / gr_face_featureval_for_lang apply; the script entry point applies the same strip) *)
Theorem C20_padding : forall s, all_bytes s -> (length s <= 4)%nat -> last s 0 <> 32 -> Forall (fun b => b <> 0) s ->
  zeropad (be32_of (pad_to4 32 s)) = zeropad (be32_of (pad_to4 0 s)).
Proof. intros s H1 H2 H3 _. exact (padding_agree s H1 H2 H3). Qed.
Print Assumptions C20_padding.

(* tie A: the functions regenerated from the source on this run are the model's *)
Theorem C20_gen_zeropad_agrees : forall x, GenTag.zeropad x = TagModel.zeropad x.
Proof. reflexivity. Qed.
Print Assumptions C20_gen_zeropad_agrees.

Theorem C20_gen_script_strip_agrees : forall x, GenTag.script_strip x = TagModel.zeropad x.
Proof. reflexivity. Qed.
Print Assumptions C20_gen_script_strip_agrees.

(* ... and at the API: the key gr_face_find_fref looks a feature up by, and the key gr_face_featureval_for_lang looks a language up by
   (both regenerated from the bodies of those functions in src/gr_face.cpp), are the same for the space-padded and the zero-padded
   spelling of a tag -- so the two spellings select the same feature and the same language's values in EVERY Feat / Sill table. *)
From GR Require Import Model.FeatModel.
Theorem C20_feature_padding : forall s, all_bytes s -> (length s <= 4)%nat -> last s 0 <> 32 -> Forall (fun b => b <> 0) s ->
  forall fm, find_fref fm (GenTag.find_fref_key (be32_of (pad_to4 32 s))) = find_fref fm (GenTag.find_fref_key (be32_of (pad_to4 0 s))).
Proof. intros s H1 H2 H3 _ fm. unfold GenTag.find_fref_key. rewrite !C20_gen_zeropad_agrees, (padding_agree s H1 H2 H3). reflexivity. Qed.
Print Assumptions C20_feature_padding.
Theorem C20_language_padding : forall s, all_bytes s -> (length s <= 4)%nat -> last s 0 <> 32 -> Forall (fun b => b <> 0) s ->
  forall fm langs, clone_for_lang fm langs (GenTag.lang_key (be32_of (pad_to4 32 s))) = clone_for_lang fm langs (GenTag.lang_key (be32_of (pad_to4 0 s))).
Proof. intros s H1 H2 H3 _ fm langs. unfold GenTag.lang_key. rewrite !C20_gen_zeropad_agrees, (padding_agree s H1 H2 H3). reflexivity. Qed.
Print Assumptions C20_language_padding.

(* non-vacuity: the hypotheses are met by concrete strings *)
Example C20_example : str_to_tag ([0x6C; 0x61; 0x74] ++ [0]) = Some 0x6C617400
                      /\ zeropad 0x6C612020 = 0x6C610000 /\ nonzero_bytes [0x6C; 0x61; 0x74].
Proof. repeat constructor. Qed.
