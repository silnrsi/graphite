(* Properties_C06.v — the property theorems for C06 (passes apply rules with the documented matching and precedence).
   Model: Model/RuleModel.v — the reference semantics of a pass over the GDL-lite subset.  The theorems establish that the
   executable reference IS the documented semantics (selection = highest precedence among the matching rules, pass-through,
   termination, composition); that the engine computes the same function is the correspondence check of tools/props/c06.py,
   which compiles random rule programs to fonts and compares the engine's output with the extracted reference. *)
From GR Require Import Base.Bytes Model.RuleModel Proofs.RuleProofs Proofs.LoopBridge.
From Coq Require Import List NArith ZArith.

(* At each position the rule that fires is a rule of the pass, matches the stream around the position, and no matching rule
   has higher precedence (longer sort key, or equal sort key and earlier in the pass). *)
Theorem C06_selection_is_highest_precedence : forall rules l i kr r, select rules l i 0 None = Some (kr, r) ->
  nth_error rules kr = Some r /\ rule_matches r l i = true /\
  (forall j r', nth_error rules j = Some r' -> rule_matches r' l i = true -> better kr r j r').
Proof. exact select_sound. Qed.
Print Assumptions C06_selection_is_highest_precedence.

Theorem C06_no_rule_iff_none_matches : forall rules l i, select rules l i 0 None = None <-> forall r, In r rules -> rule_matches r l i = false.
Proof. exact select_none. Qed.
Print Assumptions C06_no_rule_iff_none_matches.

Theorem C06_pass_through : forall adv positioning rules fuel l i, (forall j r, In r rules -> rule_matches r l j = false) -> run_pass adv positioning fuel rules l i = l.
Proof.
  induction fuel as [|f IH]; intros l i Hn; cbn [run_pass]; [reflexivity|].
  destruct (Nat.leb (length l) i); [reflexivity|].
  rewrite (proj2 (select_none rules l i) (Hn i)). apply IH. exact Hn.
Qed.
Print Assumptions C06_pass_through.

(* The pass terminates: length + 1 steps always suffice (more fuel changes nothing). *)
Theorem C06_pass_terminates : forall adv positioning rules extra fuel l i, (length l - i < fuel)%nat ->
  run_pass adv positioning (fuel + extra) rules l i = run_pass adv positioning fuel rules l i.
Proof. exact run_pass_fuel_enough. Qed.
Print Assumptions C06_pass_terminates.

(* Passes run in font order over the previous pass's output. *)
Theorem C06_passes_compose : forall adv p1 p2 k ns l,
  run_passes_from adv k ns (p1 ++ p2) l = run_passes_from adv (k + length p1) ns p2 (run_passes_from adv k ns p1 l).
Proof.
  induction p1 as [|p r IH]; intros p2 k ns l; cbn [app run_passes_from length].
  - rewrite Nat.add_0_r. reflexivity.
  - rewrite IH, Nat.add_succ_r. reflexivity.
Qed.
Print Assumptions C06_passes_compose.

(* A positioning pass changes attributes and attachments only: the number of slots stays. *)
Theorem C06_positioning_keeps_length : forall adv rules fuel l i, length (run_pass adv true fuel rules l i) = length l.
Proof.
  induction fuel as [|f IH]; intros l i; cbn [run_pass]; [reflexivity|].
  destruct (Nat.leb (length l) i); [reflexivity|].
  destruct (select rules l i 0 None) as [[kr r]|]; [|apply IH].
  unfold fire_pos. rewrite IH. apply apply_items_pos_length.
Qed.
Print Assumptions C06_positioning_keeps_length.

(* The full loop semantics (cursor adjustment, high-water mark, loop counter, insert budget — the definitions the correspondence
   check runs against the engine): a pass always ends by itself, the fuel of run_pass_b is never what stops it, so the stream it
   returns is the one the loop really ends with. *)
Theorem C06_loop_pass_terminates : forall adv positioning maxloop rules l n, (1 <= maxloop)%nat -> l <> nil ->
  ls_s (loop_run adv positioning maxloop rules (pass_fuel_b maxloop l (Some n)) (st_init maxloop l (Some n))) = None.
Proof. exact pass_terminates. Qed.
Print Assumptions C06_loop_pass_terminates.

(* non-vacuity: "ab" -> c (deleting b), "d" -> a inserted before it with advance 1234; the longer rule wins over the shorter *)
Example C06_example :
  let adv := fun g : N => 462%Z in
  let sl := fun g => mkslot g 462 0 in
  let r1 := mkrule 0 [[67]; [68]]%N [[APutGlyph 69]; [ADelete]] None in
  let r2 := mkrule 0 [[70]]%N [[AInsert 67; ASetAdv 1234]] None in
  let r3 := mkrule 0 [[67]]%N [[APutGlyph 71]] (Some (mkcon 0 CLt 1000)) in
  map s_gid (run_passes adv 1 [[r3; r1; r2]] (map sl [67; 68; 70; 67; 67; 68]%N)) = [69; 67; 70; 71; 69]%N
  /\ origins (run_passes adv 1 [[r3; r1; r2]] (map sl [67; 68; 70]%N)) 0 = [0; 462; 924]%Z
  (* a positioning pass: the second glyph attaches to the first at (100, 300) with its own point (10, 20) *)
  /\ snd (positions (run_passes adv 0 [[mkrule 0 [[67]; [68]]%N [[]; [AAttach (-1); AAttPt 100 300; AWithPt 10 20]] None]] (map sl [67; 68; 70]%N)))
     = [(0%N, (0, 0)); (1%N, (90, 280)); (2%N, (552, 0))]%Z.
Proof. vm_compute. repeat split. Qed.

(* At the level of the font's tables: the rule list Pass::runFSM hands to findNDoRule -- which tries the rules in list order and applies
   the first whose constraint holds -- is in precedence order (no rule is preceded by one of lower precedence: higher sort key first, then
   the lower rule number) and holds only rules of states of the machine, for the tables the loader builds from ARBITRARY pass bytes and
   any glyph string and context.  (Which states the machine goes through is the font compiler's business; the correspondence of C02 runs
   the real runFSM against this model.) *)
From GR Require Import Base.Mem Model.FsmModel Proofs.FsmOrder.
From Coq Require Import Sorted.
Theorem C06_fsm_rules_in_precedence_order : forall (l : bytes) f ctx gids ok n rs,
  read_fsm (mem_of_list l) = FOk f -> run_fsm f ctx gids = Some (ok, n, rs) ->
  StronglySorted (fun a b => rule_lt (f_sort f) b a = false) rs /\ (forall x, In x rs -> exists sr, In sr (f_rules f) /\ In x sr).
Proof. intros l f ctx gids ok n rs Hr Hf. exact (run_fsm_rules_in_precedence_order (read_fsm_sorted Hr) Hf). Qed.
Print Assumptions C06_fsm_rules_in_precedence_order.
