(* Properties_C07.v — the property theorems for C07 (stack machine).  Model: Model/VmModel.v *)
From GR Require Import Base.Bytes Model.VmModel Proofs.VmProofs Gen.GenVm Proofs.GenAgreeVm.
From Coq Require Import ZArith String.
Local Open Scope Z_scope.

(* For every expression tree over the push / arithmetic / comparison / logical / conditional / truncation / bit opcodes
   whose constants are 32-bit and which fits the machine's stack: the loader accepts its postfix bytecode, decodes it to
   the expected instructions, and running it returns exactly the value of the tree under the opcode specification on
   32-bit two's-complement integers — or dies cleanly where the specification has no value (zero divisor, INT_MIN / -1). *)
Theorem C07_vm_evaluates : forall e, wf e -> (sdepth e < VmModel.STACK_MAX)%nat ->
  load (code e ++ [0x30%N]) = LLoaded (icode e ++ [IPopRet]) /\
  run (icode e ++ [IPopRet]) [] = RDone (match eval e with Some v => (finished, v) | None => (died_early, 0) end).
Proof. intros e Hw Hd. split; [apply load_code; exact Hw | apply run_evaluates; exact Hd]. Qed.
Print Assumptions C07_vm_evaluates.

(* Whatever bytecode (over this opcode subset) the loader accepts never pops an empty stack and never runs off its end (it may still
   stop before its return: a division by zero or a full stack ends the run): the loader's stack-depth analysis is sound. *)
Theorem C07_loader_stack_sound : forall bc c, load bc = LLoaded c -> run c [] <> RUnderflow /\ run c [] <> RRanOff.
Proof. exact loader_stack_sound. Qed.
Print Assumptions C07_loader_stack_sound.

(* tie A: opcode numbers, parameter sizes, availability for actions and constraints, the names in doc/OpCodes.adoc, the
   stack size and MAX_OPCODE as the source has them on this run *)
Theorem C07_gen_tables_agree :
  forallb row_ok subset = true /\ GenVm.STACK_MAX = N.of_nat VmModel.STACK_MAX /\ lookup_code "maxopcode"%string = Some VmModel.MAX_OPCODE.
Proof. vm_compute. repeat split; reflexivity. Qed.
Print Assumptions C07_gen_tables_agree.

(* non-vacuity: (13 + 11 - 4 ? 42 : 43) as in tests/vm, INT_MIN / -1 dies *)
Example C07_example :
  let e := ECond (EBin Sub (EBin Add (EConst 11) (EConst 13)) (EConst 4)) (EConst 42) (EConst 43) in
  wf e /\ eval e = Some 42 /\ eval (EBin Div (EConst INT_MIN) (EConst (-1))) = None /\
  run (icode (EBin Div (EConst INT_MIN) (EConst (-1))) ++ [IPopRet]) [] = RDone (died_early, 0).
Proof. vm_compute. intuition discriminate. Qed.
