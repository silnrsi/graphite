(* Properties_C12.v — the property theorems for C12 (gr_make_seg's text consumption).
   Model: read_text in Model/UtfModel.v, after process_utf_data / Segment::read_text (src/Segment.cpp). *)
From GR Require Import Base.Bytes Model.UtfModel Proofs.UtfGeneric Proofs.UtfProofs.
Local Open Scope N_scope.

(* For memory holding exactly the text and its terminating NUL unit (any text, well-formed or not): reading never
   traps — no unit beyond the NUL is read — and for every nChars = n the char-infos produced are the first n of
   the full decode l of the text: one per character actually consumed, never more than there are units. *)
Theorem C12_utf8_stops_at_nul : forall t, exists l, (length l <= length t)%nat /\
  forall n, read_text get8 n (t ++ [0]) 0 = Some (firstn n l).
Proof. intros t. exact (read_text_stops_at_nul get8_len get8_nul get8_nul_zero t 0%nat). Qed.
Print Assumptions C12_utf8_stops_at_nul.

Theorem C12_utf16_stops_at_nul : forall t, exists l, (length l <= length t)%nat /\
  forall n, read_text get16 n (t ++ [0]) 0 = Some (firstn n l).
Proof. intros t. exact (read_text_stops_at_nul get16_len get16_nul get16_nul_zero t 0%nat). Qed.
Print Assumptions C12_utf16_stops_at_nul.

Theorem C12_utf32_stops_at_nul : forall t, exists l, (length l <= length t)%nat /\
  forall n, read_text get32 n (t ++ [0]) 0 = Some (firstn n l).
Proof. intros t. exact (read_text_stops_at_nul get32_len get32_nul get32_nul_zero t 0%nat). Qed.
Print Assumptions C12_utf32_stops_at_nul.

(* on canonical text the consumed characters and their code-unit offsets are exactly the text's, whatever
   lies after the terminator and however large nChars is *)
Theorem C12_utf8_exact : forall us n pos rest, Forall (fun u => (u < 0x110000 /\ ~ (0xD800 <= u <= 0xDFFF)) /\ u <> 0) us ->
  read_text get8 n (enc_all put8 us ++ 0 :: rest) pos = Some (firstn n (combine us (bases put8 pos us))).
Proof. exact (read_text_exact get8_nul_zero get8_put8). Qed.
Print Assumptions C12_utf8_exact.

Theorem C12_utf16_exact : forall us n pos rest, Forall (fun u => valid16 u /\ u <> 0) us ->
  read_text get16 n (enc_all put16 us ++ 0 :: rest) pos = Some (firstn n (combine us (bases put16 pos us))).
Proof. exact (read_text_exact get16_nul_zero get16_put16). Qed.
Print Assumptions C12_utf16_exact.

Theorem C12_utf32_exact : forall us n pos rest, Forall (fun u => (u < 0x110000 /\ ~ (0xD800 <= u <= 0xDFFF)) /\ u <> 0) us ->
  read_text get32 n (enc_all put32 us ++ 0 :: rest) pos = Some (firstn n (combine us (bases put32 pos us))).
Proof. exact (read_text_exact get32_nul_zero get32_put32). Qed.
Print Assumptions C12_utf32_exact.

Example C12_example : read_text get8 10 ([0x61; 0x62] ++ [0]) 0 = Some [(0x61, 0%nat); (0x62, 1%nat)]
  /\ read_text get8 1 ([0x61; 0x62] ++ [0]) 0 = Some [(0x61, 0%nat)].
Proof. vm_compute. split; reflexivity. Qed.
