(* Properties_C19.v — the property theorems for C19 (line breaking and justification).
   Models: Model/LineModel.v (the lines as lists), Model/LinePtrModel.v (the links, the transcription of reverseSlots). *)
From GR Require Import Base.Bytes Model.StreamModel Model.LineModel Proofs.LineProofs.
From Coq Require Import Permutation.

(* Any sequence of line breaks and of the first/last bracket that justification installs and restores — i.e. every justify call
   that does not trigger a reversal — leaves every slot in place: the concatenation of the lines is unchanged, lines are only
   ever split where the application cut them. *)
Theorem C19_no_reversal_preserves_lines : forall ops s s', Forall no_reverse ops -> lrun s ops = LOk s' ->
  concat (l_lines s') = concat (l_lines s).
Proof. exact lrun_no_reverse. Qed.
Print Assumptions C19_no_reversal_preserves_lines.

(* A reversal is harmless exactly under its precondition (m_last is the end of the chain headed by m_first): it then permutes
   that one line and touches no other. *)
Theorem C19_reversal_sound_under_precondition : forall s marks s', lapply s (LReverse marks) = LOk s' ->
  Forall2 (@Permutation sid) (l_lines s') (l_lines s).
Proof.
  intros s marks s'. cbn [lapply].
  destruct (match l_first s, l_last s with Some a, Some b => (a =? b)%N | None, None => true | _, _ => false end).
  - intros H. injection H as <-. apply Forall2_perm_refl.
  - destruct (reverse_chain (l_first s) (l_last s) marks (l_lines s)) as [[[ls l']|]|] eqn:E; try discriminate.
    intros H. injection H as <-. exact (reverse_chain_perm E).
Qed.
Print Assumptions C19_reversal_sound_under_precondition.

(* The unconditional statement is REFUTED: once the stream has been cut, the segment-global reverseSlots that justify (and
   positionSlots) call runs with a stale m_last.  DESIGN.md section 7, F15 / F16; recorded as known findings. *)
Theorem C19_cut_lines_refuted : exists ops, lrun (linit [0%N; 1%N; 2%N]) ops = LErr LStaleLast.
Proof.
  (* three slots, cut before the second, then a reversal: m_first is slot 0 and m_last still slot 2, which ends the other line *)
  exists [LBreak 1%N; LReverse [false]]. vm_compute. reflexivity.
Qed.
Print Assumptions C19_cut_lines_refuted.

(* The recorded defect at the level of the links (Model/LinePtrModel.v, the statement-by-statement transcription of reverseSlots):
   ten slots (1 and 9 are marks), cut before slot 4; justifying the second line with pLast = its first slot makes Segment::justify install
   m_first = slot 4, m_last = slot 3 — a last slot that is not on the chain headed by m_first — and positionSlots reverses twice.  The
   events below are the ones the engine recorded (Padauk.ttf, direction flags 2, the replay of finding F16); the model reproduces every
   link of the engine's result: the first line has swallowed the second in reverse, the second is a single slot. *)
From GR Require Import Model.LinePtrModel.
From Coq Require Import List.
Import ListNotations.
Fixpoint chain_from (fuel : nat) (nx : list ptr) (p : ptr) : list nat :=
  match fuel, p with S f, Some i => i :: chain_from f nx (getp nx i) | _, _ => [] end.
Fixpoint prun (marks : list bool) (s : pstate) (os : list pop) : pres :=
  match os with [] => POk s | o :: r => match papply marks s o with POk s' => prun marks s' r | e => e end end.
Example C19_links_of_the_recorded_defect :
  let n := 10%nat in
  let s0 := mkp (map (fun i => if Nat.eqb i 9 then None else Some (S i)) (seq 0 n)) (map (fun i => match i with O => None | S j => Some j end) (seq 0 n)) (Some 0%nat) (Some 9%nat) in
  let marks := [false; true; false; false; false; false; false; false; false; true] in
  match prun marks s0 [PBreak 4; PSetEnds (Some 4%nat) (Some 3%nat); PReverse; PReverse; PSetEnds (Some 0%nat) (Some 9%nat)] with
  | POk s => chain_from 20 (p_next s) (Some 0%nat) = [0; 1; 2; 3; 7; 6; 5; 4]%nat /\ chain_from 20 (p_next s) (Some 4%nat) = [4]%nat
  | _ => False
  end.
Proof. vm_compute. split; reflexivity. Qed.

(* At the level of the links: the transcription of Segment::reverseSlots, run on a well-formed chain without marks whose ends ARE
   m_first and m_last, reverses exactly that chain — its links afterwards are those of the reversed list, m_first / m_last are swapped,
   no other slot's links change — and the pair of reversals positionSlots makes restores everything.  The recorded defects are
   exactly the calls that break the premise (a last slot that is not on the chain headed by m_first). *)
From GR Require Import Proofs.LinePtrProofs.
Theorem C19_reversal_reverses_the_chain : forall marks s l,
  (2 <= length l)%nat -> NoDup l -> (forall a, In a l -> a < length (p_next s) /\ a < length (p_prev s))%nat -> unmarked marks l ->
  links_fwd (p_next s) (p_prev s) l None -> p_first s = hd_error l -> p_last s = hd_error (rev l) ->
  exists s', preverse marks s = POk s' /\ links_fwd (p_next s') (p_prev s') (rev l) None
             /\ p_first s' = hd_error (rev l) /\ p_last s' = hd_error l
             /\ (forall a, ~ In a l -> getp (p_next s') a = getp (p_next s) a /\ getp (p_prev s') a = getp (p_prev s) a)
             /\ length (p_next s') = length (p_next s) /\ length (p_prev s') = length (p_prev s).
Proof. exact preverse_reverses_chain. Qed.
Print Assumptions C19_reversal_reverses_the_chain.
Theorem C19_two_reversals_restore_the_links : forall marks s l,
  (2 <= length l)%nat -> NoDup l -> (forall a, In a l -> a < length (p_next s) /\ a < length (p_prev s))%nat -> unmarked marks l ->
  links_fwd (p_next s) (p_prev s) l None -> p_first s = hd_error l -> p_last s = hd_error (rev l) ->
  exists s' s'', preverse marks s = POk s' /\ preverse marks s' = POk s'' /\ links_fwd (p_next s'') (p_prev s'') l None
                 /\ p_first s'' = p_first s /\ p_last s'' = p_last s
                 /\ (forall a, ~ In a l -> getp (p_next s'') a = getp (p_next s) a /\ getp (p_prev s'') a = getp (p_prev s) a).
Proof. exact preverse_twice_restores. Qed.
Print Assumptions C19_two_reversals_restore_the_links.
(* non-vacuity: the second line [4..9 without the mark 9: 4,5,6,7,8] of a two-line state meets the premises *)
Example C19_reversal_premises_hold :
  let nx := [Some 1; Some 2; Some 3; None; Some 5; Some 6; Some 7; Some 8; None]%nat in
  let pv := [None; Some 0; Some 1; Some 2; None; Some 4; Some 5; Some 6; Some 7]%nat in
  let s := mkp nx pv (Some 4%nat) (Some 8%nat) in
  let l := [4; 5; 6; 7; 8]%nat in
  NoDup l /\ links_fwd nx pv l None /\ p_first s = hd_error l /\ p_last s = hd_error (rev l) /\ unmarked [] l.
Proof.
  split; [repeat constructor; cbn; intuition discriminate|]. split; [cbn; intuition reflexivity|].
  split; [reflexivity|]. split; [reflexivity|]. intros [|a] _; reflexivity.
Qed.

(* The end-of-line slots a font with line-end contextuals makes Segment::justify add (addLineEnd / delLineEnd, transcribed in
   Model/LinePtrModel.v): put before a slot that heads its chain -- what justify assumes of the line's first slot -- and deleted again,
   a fresh end-of-line slot leaves every link of every other slot, m_first and m_last as they were. *)
Theorem C19_line_end_slot_leaves_no_trace : forall marks s e n,
  length (p_next s) = length (p_prev s) -> (length (p_next s) <= e)%nat -> (n < length (p_next s))%nat -> getp (p_prev s) n = None ->
  p_first s <> Some e -> p_last s <> Some e ->
  exists s1 s2, papply marks s (PAddEnd e (Some n) false) = POk s1 /\ papply marks s1 (PDelEnd e) = POk s2 /\
    (forall i, i <> e -> getp (p_next s2) i = getp (p_next s) i /\ getp (p_prev s2) i = getp (p_prev s) i) /\
    p_first s2 = p_first s /\ p_last s2 = p_last s.
Proof.
  intros marks s e n Hlen He Hn Hp Hf Hl.
  eexists. eexists. split; [reflexivity|]. cbn [papply p_next p_prev p_first p_last].
  autorewrite with ptr. rewrite Hp, (peq_neq Hf), (peq_neq Hl).
  split; [reflexivity|]. cbn [p_next p_prev p_first p_last]. split; [|split; reflexivity].
  intros i Hi. destruct (PeanoNat.Nat.eq_dec i n) as [->|Hin]; autorewrite with ptr; auto.
Qed.
Print Assumptions C19_line_end_slot_leaves_no_trace.
(* ... whereas the recorded defect of right-to-left lines (known_findings.txt: both end-of-line slots linked before ONE slot, the second
   addLineEnd finding a predecessor that it does not relink) is what the same transcription predicts: slots 0 1, end-of-line slots 2 3
   both put before slot 0 and deleted in the order justify deletes them leave slot 0 with a prev pointer to the freed slot 2 *)
Example C19_links_of_the_line_end_defect :
  let s0 := mkp [Some 1; None]%nat [None; Some 0]%nat (Some 0%nat) (Some 1%nat) in
  match papply [] s0 (PAddEnd 2 (Some 0%nat) false) with
  | POk s1 => match papply [] s1 (PAddEnd 3 (Some 0%nat) false) with
              | POk s2 => match papply [] s2 (PDelEnd 2) with
                          | POk s3 => match papply [] s3 (PDelEnd 3) with
                                      | POk s4 => getp (p_prev s4) 0 = Some 2%nat /\ getp (p_next s4) 0 = Some 1%nat
                                      | _ => False end
                          | _ => False end
              | _ => False end
  | _ => False end.
Proof. vm_compute. split; reflexivity. Qed.
