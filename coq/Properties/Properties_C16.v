(* Properties_C16.v — the property theorems for C16 (table callbacks follow strict borrow discipline).
   Models: Model/TableModel.v — the life cycle of Face::Table and the ledger of get / release / milestone events. *)
From GR Require Import Base.Bytes Model.TableModel Proofs.TableProofs.
From Coq Require Import NArith.
Local Open Scope N_scope.

(* A trace of table callbacks and API milestones that the ledger accepts satisfies the discipline in its declarative form:
   every buffer handed out is released exactly once and identifiers are never reused; no release precedes its get; the trace
   ends with gr_face_destroy (or a failed gr_make_face) with nothing outstanding and nothing after it; and with
   gr_face_preloadAll no table is fetched once gr_make_face has returned. *)
Theorem C16_ledger_sound : forall preload tr, ledger_ok preload tr = true ->
  (forall h, cnt_rel h tr = cnt_get h tr /\ (cnt_get h tr <= 1)%nat) /\
  (forall a b h, tr = a ++ b -> (cnt_rel h a <= cnt_get h a)%nat) /\
  (exists a, tr = a ++ [EDestroyed] \/ tr = a ++ [EFailed]) /\
  (preload = true -> forall a b h, tr = a ++ EMade :: b -> cnt_get h b = 0%nat).
Proof. exact ledger_sound. Qed.
Print Assumptions C16_ledger_sound.

(* Face::Table, the only place where the library touches the callbacks.  Constructor: whatever the table bytes are, the
   buffer obtained is owned by the new object or has been handed back before the constructor returns. *)
Theorem C16_table_constructor : forall w c, w_bad w = false ->
  let '(w', t) := construct true w c in
  w_bad w' = false /\
  match t_p t with
  | None => w_lent w' = w_lent w /\ w_heap w' = w_heap w
  | Some (App h) => t_comp t = false /\ w_lent w' = h :: w_lent w /\ w_heap w' = w_heap w /\ h = w_next w
  | Some (Heap b) => t_comp t = true /\ w_lent w' = w_lent w /\ w_heap w' = b :: w_heap w /\ b = w_next w + 1
  end.
Proof. exact construct_contract. Qed.
Print Assumptions C16_table_constructor.

(* release: exactly the owned buffer goes back, exactly once; a moved-from or failed object can be destroyed at will. *)
Theorem C16_table_release : forall w h, w_bad w = false -> (0 < occ h (w_lent w))%nat ->
  let '(w', t') := release true w (mktvar (Some (App h)) false) in
  t_p t' = None /\ w_bad w' = false /\ w_heap w' = w_heap w /\ (forall y, occ y (w_lent w) = ((if N.eqb y h then 1 else 0) + occ y (w_lent w'))%nat).
Proof.
  intros w h Hb Ho. unfold release. cbn [t_comp t_p]. destruct (occ_in Ho) as (r & -> & Hr).
  repeat split; assumption.
Qed.
Print Assumptions C16_table_release.
Theorem C16_table_release_null : forall has_rel w c, release has_rel w (mktvar None c) = (w, mktvar None c).
Proof. intros has_rel w [|]; reflexivity. Qed.
Print Assumptions C16_table_release_null.

(* non-vacuity: a real log (Padauk, default options: create, a label query, destroy) is accepted; the same log without one release is not *)
Example C16_example :
  ledger_ok false [EGet 1; EGet 2; ERel 2; EMade; EGet 3; ERel 3; ERel 1; EDestroyed] = true /\
  ledger_ok false [EGet 1; EGet 2; ERel 2; EMade; EGet 3; ERel 3; EDestroyed] = false /\
  ledger_ok true [EGet 1; ERel 1; EMade; EGet 2; ERel 2; EDestroyed] = false.
Proof. vm_compute. repeat split. Qed.

(* With gr_face_preloadAll, once gr_make_face has returned, get_table is not called at all — not even for a table that is absent. *)
Theorem C16_preload_no_call : forall tr, ledger_ok true tr = true -> forall a b, tr = a ++ EMade :: b -> ~ In ENull b /\ (forall h, ~ In (EGet h) b).
Proof.
  intros tr. unfold ledger_ok. destruct (lrun true lg0 tr) as [s|] eqn:R; [|discriminate]. intros _ a b ->.
  pose proof (lrun_preload_no_call R) as F. rewrite Forall_forall in F.
  split; [exact (F ENull) | intros h; exact (F (EGet h))].
Qed.
Print Assumptions C16_preload_no_call.
