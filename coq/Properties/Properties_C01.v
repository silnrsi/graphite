(* Properties_C01.v — the property theorems for C01 (font loading is total and memory-safe on arbitrary table bytes).
   Models: Model/SfntModel.v (container / file face), Model/CmapModel.v, Model/Lz4Model.v, Model/VmModel.v (bytecode loader),
   each hand-written after the parser it names; Model/GlatModel.v (Gloc / Glat reader), Model/ClassMapModel.v (class map), Model/PassModel.v (pass header),
   Model/FsmModel.v (the table reads that build a pass's state machine), Model/SilfModel.v (Silf directory and subtable headers).  The rest of the pass parser and the name parser are not modelled:
   DESIGN.md section 6/C01 lists them as covered by the sanitizer oracle only. *)
From GR Require Import Base.Bytes Base.MemFacts Model.SfntModel Proofs.SfntProofs Model.CmapModel Proofs.CmapSafe Model.Lz4Model Proofs.Lz4Sound
                       Model.VmModel Proofs.VmProofs Base.Mem Model.GlatModel Proofs.GlatProofs Model.ClassMapModel Proofs.ClassMapProofs.

(* The file face: for ARBITRARY file bytes, a table handed out is a slice of the file (offset + length inside the file) … *)
Theorem C01_file_table_inside : forall f tag t, file_table f tag = Some t ->
  exists off len, (off + len <= flen f)%N /\ t = firstn (N.to_nat len) (skipn (N.to_nat off) f) /\ length t = N.to_nat len.
Proof.
  intros f tag t. unfold file_table. destruct (open_file f) as [ff|]; [|discriminate]. unfold get_table.
  destruct (table_info ff tag) as [[off len]|]; [|discriminate].
  destruct (_ || _); [discriminate|]. intros H.
  destruct (fread_inside H) as [H1 [H2 H3]]. exists off, len. repeat split; assumption.
Qed.
Print Assumptions C01_file_table_inside.

(* tie A for the test that decides it: the bounds test of FileFace::get_table_fn (regenerated from its body in src/FileFace.cpp, together
   with the fact that exactly the directory's length is allocated, read and reported) lets through exactly the pairs inside the file, and
   is the test the model above uses. *)
From GR Require Import Gen.GenFile.
From Coq Require Import Lia ZifyBool.
Theorem C01_file_table_bounds_tied : forall off len fl, (GenFile.file_table_refused off len fl = false <-> (off + len <= fl)%N) /\
  GenFile.file_table_refused off len fl = ((fl <? off) || (fl - off <? len))%N.
Proof.
  unfold GenFile.file_table_refused. lia.
Qed.
Print Assumptions C01_file_table_bounds_tied.

(* … and opening reads exactly the 12-byte header and num_tables 16-byte entries, all inside the file. *)
Theorem C01_open_file_inside : forall f ff, open_file f = Some ff ->
  length (ff_header ff) = 12%nat /\ length (ff_dir ff) = N.to_nat (ff_ntables ff * 16) /\ (12 + ff_ntables ff * 16 <= flen f)%N.
Proof.
  intros f ff. unfold open_file. destruct (fread f 0 HEADER_LEN) as [h|] eqn:Eh; [|discriminate].
  destruct (negb _); [discriminate|].
  destruct (fread f HEADER_LEN (be16 h 4 * ENTRY_LEN)) as [d|] eqn:Ed; [|discriminate]. intros H. injection H as <-. cbn [ff_header ff_dir ff_ntables].
  destruct (fread_inside Eh) as [A1 [A2 _]]. destruct (fread_inside Ed) as [B1 [B2 _]].
  unfold HEADER_LEN, ENTRY_LEN in *. repeat split; [exact A2 | exact B2 | lia].
Qed.
Print Assumptions C01_open_file_inside.

(* cmap: for ARBITRARY table bytes, once the subtable checks accepted, no lookup reads outside the table. *)
Theorem C01_cmap12_safe : forall (l : bytes) o, let t := mem_of_list l in (tlen t < S64)%N -> check12 t (Some o) = Some true ->
  forall c key, lookup12 t o c key <> None.
Proof. intros l o. exact (lookup12_safe (mem_of_list l) o (mem_of_list_wf l)). Qed.
Print Assumptions C01_cmap12_safe.
Theorem C01_cmap4_safe : forall (l : bytes) o, let t := mem_of_list l in (tlen t < S64)%N -> check4 t (Some o) = Some true ->
  forall c key sc, w4 t o 3 = Some sc -> (key < sc / 2)%N -> lookup4 t o c key <> None.
Proof. intros l o. exact (lookup4_safe (mem_of_list l) o (mem_of_list_wf l)). Qed.
Print Assumptions C01_cmap4_safe.

(* compressed tables: for ARBITRARY compressed bytes and any announced size the decoder stays inside both buffers and terminates. *)
Theorem C01_decompress_safe : forall src osz out0, length out0 = osz ->
  decompress src osz out0 <> Trap /\ decompress src osz out0 <> OutOfFuel.
Proof. exact decompress_safe. Qed.
Print Assumptions C01_decompress_safe.

(* rule bytecode: whatever the loader accepts (over the modelled opcode subset) never underflows the stack nor runs off its end. *)
Theorem C01_bytecode_loader_sound : forall bc c, load bc = LLoaded c -> run c [] <> RUnderflow /\ run c [] <> RRanOff.
Proof. exact loader_stack_sound. Qed.
Print Assumptions C01_bytecode_loader_sound.

(* non-vacuity: a 44-byte file with one table entry pointing at its last 4 bytes; the same file with the length field raised by one *)
Example C01_example :
  let hdr := [0;1;0;0; 0;1; 0;0;0;0;0;0]%N in
  let ent len := [0x54;0x45;0x53;0x54; 0;0;0;0; 0;0;0;40; 0;0;0;len]%N in
  let body := repeat 0%N 12 ++ [0xDE;0xAD;0xBE;0xEF]%N in
  file_table (hdr ++ ent 4%N ++ body) 0x54455354 = Some [0xDE;0xAD;0xBE;0xEF]%N /\ file_table (hdr ++ ent 5%N ++ body) 0x54455354 = None.
Proof. vm_compute. split; reflexivity. Qed.

(* Pass::readPass: for ARBITRARY pass bytes (any length, any header values, any subtable base) the loader never reads outside
   the pass, and every array and code block it goes on to read — ranges, rule map, start states, sort keys, pre-contexts,
   constraint / action offsets, transition table, pass constraint, each rule's constraint and action code — lies inside it. *)
From GR Require Import Model.PassModel Proofs.PassProofs.
Theorem C01_read_pass_safe : forall (l : bytes) base coll_ok,
  match read_pass (mem_of_list l) base coll_ok with
  | PTrap => False
  | PReject => True
  | PAccept rs => Forall (fun r => (0 <= fst r /\ 0 <= snd r /\ fst r + snd r <= Z.of_N (tlen (mem_of_list l)))%Z) rs
  end.
Proof.
  intros l base coll_ok. pose proof (read_pass_ok (mem_of_list l) (mem_of_list_wf l) base coll_ok) as H.
  destruct (read_pass (mem_of_list l) base coll_ok); [exact H|exact I|exact (proj1 H)].
Qed.
Print Assumptions C01_read_pass_safe.

(* ... and the two models of readPass meet: on EVERY pass whose offsets the model above accepts, the reads that build the state
   machine's tables (Model/FsmModel.v: ranges, rule-map offsets and rule map, pre-context bounds, start states, sort keys, the
   transition table) all fall inside the pass — the second model, which repeats the first one's offset arithmetic, never traps. *)
From GR Require Import Model.FsmModel Proofs.PassFsm.
Theorem C01_pass_tables_read_in_bounds : forall (l : bytes) base coll_ok rs,
  read_pass (mem_of_list l) base coll_ok = PAccept rs -> read_fsm (mem_of_list l) <> FTrap.
Proof.
  intros l base coll_ok rs E. pose proof (read_pass_ok (mem_of_list l) (mem_of_list_wf l) base coll_ok) as H. rewrite E in H.
  exact (read_fsm_fits (mem_of_list l) (mem_of_list_wf l) (proj2 H)).
Qed.
Print Assumptions C01_pass_tables_read_in_bounds.
(* non-vacuity: the compiled two-rule pass of C02_example_fsm, at subtable offset 66, is accepted by both *)
Example C01_example_pass_tables :
  let p := mem_of_list [0; 1; 2; 0; 0; 2; 0; 0; 0; 0; 0; 162; 0; 0; 0; 162; 0; 0; 0; 162; 0; 0; 0; 0; 0; 3; 0; 2; 0; 2; 0; 2; 0; 2; 0; 0; 0; 0; 0; 0; 0; 5; 0; 5;
      0; 0; 0; 6; 0; 6; 0; 1; 0; 0; 0; 1; 0; 2; 0; 1; 0; 0; 0; 0; 0; 0; 0; 2; 0; 1; 0; 0; 0; 0; 0; 0; 0; 0; 0; 0; 0; 0; 0; 0; 5; 0; 9; 0; 1; 0; 0; 0; 0; 0; 2; 0; 28; 0; 25;
      25; 49; 28; 1; 25; 49]%N in
  (exists rs, read_pass p 66 true = PAccept rs /\ length rs = 15%nat) /\ (exists f, read_fsm p = FOk f /\ f_nrules f = 2%N).
Proof. split; eexists; (split; [vm_compute; reflexivity|]); vm_compute; reflexivity. Qed.

(* The glyph-attribute reader (GlyphCache::Loader, read_glyph, the Glat run iterators): for ARBITRARY Gloc and Glat bytes the header
   checks never read outside the tables, and once they accepted the pair, reading the attributes of ANY glyph below the
   attributed-glyph count never reads outside either table and ends by itself (fuel is not what stops the iterator). *)
Theorem C01_glat_loader_total : forall (gloc glat : bytes) ng, glat_loader (mem_of_list gloc) (mem_of_list glat) ng <> None.
Proof. intros. apply glat_loader_total; apply mem_of_list_wf. Qed.
Print Assumptions C01_glat_loader_total.
Theorem C01_glat_reads_in_bounds : forall (gloc glat : bytes) ng l, glat_loader (mem_of_list gloc) (mem_of_list glat) ng = Some (Some l) ->
  forall gid, (gid < gl_nglyphs l)%N -> read_attrs l (mem_of_list gloc) (mem_of_list glat) gid <> GTrap.
Proof. intros gloc glat ng l. apply read_attrs_safe; apply mem_of_list_wf. Qed.
Print Assumptions C01_glat_reads_in_bounds.
(* non-vacuity: two glyphs, version-1 Glat; glyph 0 has attributes 1 -> 7, 2 -> 9; glyph 1's block claims a run of 2 with room for one
   value and a stray byte: the iterator stops at the stray byte instead of reading past the table *)
Example C01_example_glat :
  let gloc := [0;1;0;0; 0;0; 0;8;  0;4; 0;10; 0;15]%N in
  let glat := [0;1;0;0;  1;2;0;7;0;9;  0;2;0;5;3]%N in
  match glat_loader (mem_of_list gloc) (mem_of_list glat) 2 with
  | Some (Some l) => gl_nglyphs l = 2%N /\ read_attrs l (mem_of_list gloc) (mem_of_list glat) 0 = GAttrs [(1, 7); (2, 9)]%N
                     /\ read_attrs l (mem_of_list gloc) (mem_of_list glat) 1 = GAttrs [(0, 5)]%N
  | _ => False
  end.
Proof. vm_compute. repeat split. Qed.

(* The class map of a Silf subtable (Silf::readClassMap / readClassOffsets): for ARBITRARY bytes, any Silf version and any position and
   length inside the table, the reader never reads outside the data_len bytes it is given (with the class-map header size kept in 32 bits,
   as repaired: kept in 16 bits it wrapped from 32766 classes on and the class data was read past the table). *)
Theorem C01_class_map_reads_in_bounds : forall (l : bytes) start dlen version, (start + dlen <= tlen (mem_of_list l))%N ->
  read_class_map (mem_of_list l) start dlen version <> CTrap.
Proof. intros l start dlen version. apply read_class_map_safe. apply mem_of_list_wf. Qed.
Print Assumptions C01_class_map_reads_in_bounds.
(* non-vacuity: one linear class {5, 9} and one lookup class of one pair, 16-bit offsets: accepted *)
Example C01_example_classmap :
  read_class_map (mem_of_list [0;2; 0;1;  0;10; 0;14; 0;26;  0;5; 0;9;  0;1; 0;1; 0;0; 0;0; 0;7; 0;3]%N) 0 26 0x20000
  = COk 2 1 [0; 2; 8]%N [5; 9; 1; 1; 0; 0; 7; 3]%N.
Proof. vm_compute. reflexivity. Qed.

From GR Require Import Model.SilfModel Proofs.SilfProofs.
(* The Silf table directory and the subtable headers (Face::readGraphite, Silf::readGraphite): for ARBITRARY table bytes, any glyph
   and attribute counts, no read falls outside the table -- in the directory loop (which reads entry i without looking at the table
   length: every subtable accepted before it is at least 31 bytes long and the offsets increase), in the header fields, the
   justification levels, the pseudo-glyph map, the class map, the pass offset array, or any pass handed to Pass::readPass as the slice
   [pass_start, pass_end) of its subtable. *)
Theorem C01_silf_reads_in_bounds : forall (l : bytes) ng na boxes j, snd (read_silf_table (mem_of_list l) ng na boxes) <> Some (j, STrap).
Proof. intros l ng na boxes j. exact (proj2 (read_silf_table_spec (mem_of_list l) ng na boxes (mem_of_list_wf l)) j). Qed.
Print Assumptions C01_silf_reads_in_bounds.
(* ... and every subtable the loader accepted has its glyph-attribute numbers below numAttrs, its pass numbers ordered
   (substitution <= positioning <= justification <= numPasses <= 128, the bidi pass absent or between the last two), the ligature
   attribute number (aLig) at most 127, as many pass slices as passes, and each slice inside the subtable after the passes' start *)
Theorem C01_silf_accepted_headers_consistent : forall (l : bytes) ng na boxes,
  Forall (fun h => exists len, (len <= tlen (mem_of_list l))%N /\ hdr_ok len na h) (fst (read_silf_table (mem_of_list l) ng na boxes)).
Proof. intros l ng na boxes. exact (proj1 (read_silf_table_spec (mem_of_list l) ng na boxes (mem_of_list_wf l))). Qed.
Print Assumptions C01_silf_accepted_headers_consistent.
(* non-vacuity: a compiled one-rule font's Silf table (version 2, one subtable, one substitution pass) is accepted whole *)
Example C01_example_silf :
  let t := mem_of_list [0; 2; 0; 0; 0; 1; 0; 0; 0; 0; 0; 12; 0; 219; 0; 0; 0; 0; 1; 0; 1; 1; 255; 0; 2; 8; 0; 1; 2; 3; 0; 0; 0; 0; 2; 0; 1; 0; 0; 0; 0; 0; 0; 0; 0; 0;
    0; 0; 0; 62; 0; 0; 0; 139; 0; 0; 0; 0; 0; 0; 0; 0; 0; 1; 0; 1; 0; 8; 0; 10; 0; 6; 0; 0; 0; 1; 1; 0; 0; 1; 0; 0; 0; 0; 0; 135; 0; 0; 0; 135; 0; 0; 0; 135;
    0; 0; 0; 0; 0; 2; 0; 1; 0; 1; 0; 1; 0; 1; 0; 0; 0; 0; 0; 0; 0; 5; 0; 5; 0; 0; 0; 0; 0; 1; 0; 0; 0; 0; 0; 0; 0; 1; 0; 0; 0; 0; 0; 0; 0; 0; 0; 0; 0; 4; 0; 1;
    0; 28; 0; 25; 49]%N in
  match read_silf_table t 220 8 false with
  | ([h], None) => h_npass h = 1%N /\ h_passes h = [(62, 139, 1)]%N /\ h_nclass h = 1%N /\ have_passes [h] = true
  | _ => False
  end.
Proof. vm_compute. repeat split. Qed.
