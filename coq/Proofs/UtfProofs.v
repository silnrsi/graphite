(* Proofs/UtfProofs.v — the three codecs satisfy the interface of UtfGeneric.v; plus codec-specific facts *)
From GR Require Import Base.Bytes Base.Bits Model.UtfModel Proofs.UtfGeneric.
From Coq Require Import ZifyN ZifyBool.
Local Open Scope N_scope.

(* the Unicode scalar values; the same for the three encoding forms *)
Definition valid16 (u : N) : Prop := u < 0x110000 /\ ~ (0xD800 <= u <= 0xDFFF).

Lemma is_cont_range b : is_cont b = true <-> 0x80 <= b < 0xC0.
Proof. unfold is_cont. rewrite N.shiftr_div_pow2. lia. Qed.

Lemma seq_sz_spec b : (b < 0x80 -> seq_sz b = 1) /\ (0x80 <= b < 0xC0 \/ 0x100 <= b -> seq_sz b = 0) /\
  (0xC0 <= b < 0xE0 -> seq_sz b = 2) /\ (0xE0 <= b < 0xF0 -> seq_sz b = 3) /\ (0xF0 <= b < 0x100 -> seq_sz b = 4).
Proof.
  (* the table by ranges of the high nibble *)
  assert (T : forall k, nth k sz_lut 0 =
    if (k <? 8)%nat then 1 else if (k <? 12)%nat then 0 else if (k <? 14)%nat then 2 else if (k <? 15)%nat then 3
    else if (k <? 16)%nat then 4 else 0).
  { do 17 (destruct k as [|k]; [reflexivity|]). reflexivity. }
  unfold seq_sz. rewrite T, N.shiftr_div_pow2. change (2 ^ 4) with 16. set (k := N.to_nat (b / 16)).
  destruct (Nat.ltb_spec k 8); [|destruct (Nat.ltb_spec k 12); [|destruct (Nat.ltb_spec k 14); [|destruct (Nat.ltb_spec k 15);
    [|destruct (Nat.ltb_spec k 16)]]]]; lia.
Qed.

Lemma cont_steps_some ths : forall u r l t u' l' t', cont_steps ths u r l t = Some (u', l', t') ->
  exists k, l' = (l + k)%nat /\ (k <= length ths)%nat /\ (k <= length r)%nat /\ Forall (fun b => is_cont b = true) (firstn k r).
Proof.
  induction ths as [|th ths IH]; intros u r l t u' l' t' H; cbn [cont_steps] in H.
  - exists 0%nat. inversion H. repeat split; try lia. constructor.
  - destruct r as [|b r]; [discriminate|]. destruct (is_cont b) eqn:Eb.
    + apply IH in H as (k & -> & H1 & H2 & H3). exists (S k). cbn [length firstn]. repeat split; try lia. constructor; assumption.
    + exists 0%nat. inversion H. repeat split; try lia. constructor.
Qed.

Lemma cont_steps_none ths : forall u r l t,
  cont_steps ths u r l t = None -> Forall (fun b => is_cont b = true) r /\ (length r < length ths)%nat.
Proof.
  induction ths as [|th ths IH]; intros u r l t H; cbn [cont_steps] in H; [discriminate|].
  destruct r as [|b r]; [split; [constructor|cbn; lia]|].
  destruct (is_cont b) eqn:Eb; [|discriminate].
  apply IH in H. destruct H as [Hf Hl]. split; [constructor; assumption|cbn [length]; lia].
Qed.

(* a continuation byte carrying the low six bits of x takes the accumulator from x / 64 to x *)
Lemma cont_step x th ths r l t :
  cont_steps (th :: ths) (x / 64) ((0x80 + x mod 64) :: r) l t = cont_steps ths x r (S l) (t || (x <? th)).
Proof.
  cbn [cont_steps]. replace (is_cont (0x80 + x mod 64)) with true by (symmetry; apply is_cont_range; lia).
  change 0x3F with (N.ones 6).
  rewrite (low_bits 0x80 (x mod 64) 6), N.lor_comm, lor_shiftl_add by (try apply N.mod_lt; easy).
  replace (x mod 64 + x / 64 * 2 ^ 6) with x by (change (2 ^ 6) with 64; lia). reflexivity.
Qed.

Lemma thresholds_length sz : (length (thresholds sz) <= 3)%nat /\ (sz <> 0 -> (S (length (thresholds sz)) <= N.to_nat sz)%nat).
Proof. unfold thresholds. destruct (N.eqb_spec sz 4), (N.eqb_spec sz 3), (N.eqb_spec sz 2); cbn; lia. Qed.

(* what a successful get8 says: either the lead byte was no lead byte, or the continuation loop ended in (u, l, t),
   l units are stepped over, and if the result is flagged good it is u, a scalar value, and l is what the lead byte asked for *)
Lemma get8_some b0 r g : get8 (b0 :: r) = Some g ->
  g = mkgot 0xFFFD 1 false \/
  exists u t, cont_steps (thresholds (seq_sz b0)) (N.land b0 (lead_mask (seq_sz b0))) r 1 false = Some (u, g_len g, t) /\
              (g_ok g = true -> g_usv g = u /\ valid16 u /\ N.of_nat (g_len g) = seq_sz b0).
Proof.
  unfold get8. destruct (seq_sz b0 =? 0); [intros [= <-]; left; reflexivity|].
  destruct (cont_steps _ _ r 1 false) as [[[u l] t]|]; [|discriminate].
  destruct (_ || _ || (limit <=? u) || is_surrogate u) eqn:E; intros [= <-]; right; exists u, t; (split; [reflexivity|]); cbn [g_ok g_usv g_len]; [discriminate|].
  unfold limit, is_surrogate, valid16 in *. lia.
Qed.

Lemma get8_none b0 r : get8 (b0 :: r) = None ->
  seq_sz b0 <> 0 /\ Forall (fun b => is_cont b = true) r /\ (length r < length (thresholds (seq_sz b0)))%nat.
Proof.
  unfold get8. destruct (seq_sz b0 =? 0) eqn:Ez; [discriminate|]. apply N.eqb_neq in Ez.
  destruct (cont_steps _ _ r 1 false) as [[[u l] t]|] eqn:E; [destruct (_ || _ || _ || _); discriminate|intros _].
  exact (conj Ez (cont_steps_none _ _ _ _ _ E)).
Qed.

(* resynchronisation: get8 steps over at most 4 units that are there, and whatever it steps over after the first is a
   continuation byte, so the next lead / ASCII byte is never consumed by an error *)
Lemma get8_resync m g : get8 m = Some g ->
  (1 <= g_len g <= 4)%nat /\ (g_len g <= length m)%nat /\ Forall (fun b => is_cont b = true) (firstn (g_len g - 1) (tl m)).
Proof.
  destruct m as [|b0 r]; [discriminate|]. intros [->|(u & t & (k & -> & H1 & H2 & H3)%cont_steps_some & _)]%get8_some.
  - cbn. repeat split; try lia. constructor.
  - pose proof (thresholds_length (seq_sz b0)). cbn [length tl]. replace (1 + k - 1)%nat with k by lia. repeat split; try lia. exact H3.
Qed.

Lemma get8_len m g : get8 m = Some g -> (1 <= g_len g <= length m)%nat.
Proof. intros H%get8_resync. lia. Qed.

Lemma firstn_before {A} (P : A -> Prop) k l x rest : Forall P (firstn k (l ++ x :: rest)) -> ~ P x -> (k <= length l)%nat.
Proof.
  intros H Hx. destruct (Nat.le_gt_cases k (length l)) as [Hk|Hk]; [exact Hk|].
  rewrite firstn_app in H. apply Forall_app in H as [_ H].
  replace (k - length l)%nat with (S (k - length l - 1)) in H by lia. inversion H; contradiction.
Qed.

(* NUL is not a continuation byte: get8 neither runs over it nor counts it into a longer sequence *)
Lemma get8_nul t rest : t <> [] -> exists g, get8 (t ++ 0 :: rest) = Some g /\ (g_len g <= length t)%nat.
Proof.
  destruct t as [|b0 r]; [congruence|intros _]. cbn [app].
  destruct (get8 (b0 :: r ++ 0 :: rest)) as [g|] eqn:E.
  - exists g. split; [reflexivity|]. apply get8_resync in E as (Hl & _ & Hc%firstn_before); [cbn [length]; lia|discriminate].
  - apply get8_none in E as (_ & Hc & _). apply Forall_app in Hc as [_ Hc]. inversion Hc; discriminate.
Qed.

Lemma get8_nul_zero rest : get8 (0 :: rest) = Some (mkgot 0 1 true).
Proof. reflexivity. Qed.

(* validate8 looks at the last sequence only: a lead or ASCII byte b0 followed by continuation bytes.  It accepts iff
   that sequence is at least as long as b0 asks for (it never looks further back than three bytes). *)
Lemma validate8_tail p b0 cs : seq_sz b0 <> 0 -> Forall (fun b => is_cont b = true) cs -> (length cs <= 3)%nat ->
  validate8 (p ++ b0 :: cs) = (N.to_nat (seq_sz b0) <=? S (length cs))%nat.
Proof.
  intros H0 Hc Hl. pose proof (seq_sz_spec b0) as S. unfold validate8. rewrite rev_app_distr.
  destruct cs as [|c1 [|c2 [|c3 [|? ?]]]]; [| | | |cbn [length] in Hl; lia];
    repeat (apply Forall_cons_iff in Hc; destruct Hc as [?%is_cont_range Hc]); cbn [rev app length];
    (* every comparison left is of b0 or a continuation byte with a constant: split on each; the lead-byte table
       (seq_sz_spec) decides the right-hand side, lia refutes the impossible combinations *)
    repeat match goal with |- context [if ?c then _ else _] => destruct c eqn:? end; try lia;
    destruct (rev p); lia.
Qed.

Lemma get8_none_validate p m : m <> [] -> get8 m = None -> validate8 (p ++ m) = false.
Proof.
  destruct m as [|b0 r]; [congruence|]. intros _ (Hz & Hc & Hl)%get8_none. pose proof (thresholds_length (seq_sz b0)).
  rewrite validate8_tail by (assumption || lia). lia.
Qed.

(* a sequence that get8 accepts and consumes whole is one that validate8 accepts at the end of any region *)
Lemma get8_ok_validate p m g : get8 m = Some g -> g_ok g = true -> g_len g = length m -> validate8 (p ++ m) = true.
Proof.
  destruct m as [|b0 r]; [discriminate|].
  intros [->|(u & t & (k & E & H1 & H2 & H3)%cont_steps_some & H)]%get8_some Hok Hl; [discriminate|].
  destruct (H Hok) as (_ & _ & Hsz). pose proof (thresholds_length (seq_sz b0)). cbn [length] in Hl.
  assert (k = length r) by lia. subst k. rewrite firstn_all in H3.
  rewrite validate8_tail by (assumption || lia). lia.
Qed.

Lemma put8_eq u : put8 u =
  if u <? 0x80 then [u]
  else if u <? 0x800 then [0xC0 + u / 64; 0x80 + u mod 64]
  else if u <? 0x10000 then [0xE0 + u / 64 / 64; 0x80 + (u / 64) mod 64; 0x80 + u mod 64]
  else [0xF0 + u / 64 / 64 / 64; 0x80 + (u / 64 / 64) mod 64; 0x80 + (u / 64) mod 64; 0x80 + u mod 64].
Proof. unfold put8. change 0x3F with (N.ones 6). rewrite !N.land_ones, !N.shiftr_div_pow2, !N.div_div by discriminate. reflexivity. Qed.

Lemma get8_complete b0 r sz u : seq_sz b0 = N.of_nat sz -> sz <> 0%nat -> u < limit ->
  cont_steps (thresholds (N.of_nat sz)) (N.land b0 (lead_mask (N.of_nat sz))) r 1 false = Some (u, sz, false) ->
  get8 (b0 :: r) = Some (if is_surrogate u then mkgot 0xFFFD sz false else mkgot u sz true).
Proof.
  intros Esz Hsz Hu E. unfold get8. rewrite Esz, E, N.eqb_refl. replace (N.of_nat sz =? 0) with false by lia.
  replace (limit <=? u) with false by lia. destruct (is_surrogate u); reflexivity.
Qed.

(* what get8 makes of the canonical encoding of any code point below the limit, whatever follows:
   a scalar value comes back; a surrogate code point (three bytes ED A0..BF xx) is refused *)
Theorem get8_put8_any u rest : u < limit ->
  get8 (put8 u ++ rest) =
  Some (if is_surrogate u then mkgot 0xFFFD (length (put8 u)) false else mkgot u (length (put8 u)) true).
Proof.
  intros Hu. pose proof Hu as Hu'. unfold limit in Hu'. rewrite put8_eq.
  destruct (N.ltb_spec u 0x80); [|destruct (N.ltb_spec u 0x800); [|destruct (N.ltb_spec u 0x10000)]]; cbn [app length];
    (apply get8_complete; [apply seq_sz_spec; lia|discriminate|exact Hu|]).
  - change (lead_mask _) with (N.ones 8). rewrite N.land_ones, N.mod_small by (cbn; lia). reflexivity.
  - change (lead_mask _) with (N.ones 6). rewrite (low_bits 0xC0 (u / 64) 6) by (cbn; lia).
    change (thresholds _) with [0x80]. rewrite cont_step. cbn [cont_steps]. repeat f_equal; lia.
  - change (lead_mask _) with (N.ones 5). rewrite (low_bits 0xE0 (u / 64 / 64) 5) by (cbn; lia).
    change (thresholds _) with [0x20; 0x80]. rewrite !cont_step. cbn [cont_steps]. repeat f_equal; lia.
  - change (lead_mask _) with (N.ones 4). rewrite (low_bits 0xF0 (u / 64 / 64 / 64) 4) by (cbn; lia).
    change (thresholds _) with [0x10; 0x20; 0x80]. rewrite !cont_step. cbn [cont_steps]. repeat f_equal; lia.
Qed.

Lemma get8_put8 u rest : valid16 u -> get8 (put8 u ++ rest) = Some (mkgot u (length (put8 u)) true).
Proof. intros [Hu Hs]. rewrite get8_put8_any by exact Hu. replace (is_surrogate u) with false by (unfold is_surrogate; lia). reflexivity. Qed.

Lemma validate8_put8 p u : valid16 u -> validate8 (p ++ put8 u) = true.
Proof. intros H%(get8_put8 u []). rewrite app_nil_r in H. exact (get8_ok_validate p _ _ H eq_refl eq_refl). Qed.

Lemma get16_len m g : get16 m = Some g -> (1 <= g_len g <= length m)%nat.
Proof.
  unfold get16. destruct m as [|uh r]; [discriminate|].
  destruct ((uh <? 0xD800) || (0xDFFF <? uh)); [intros [= <-]; cbn; lia|].
  destruct (0xDBFF <? uh); [intros [= <-]; cbn; lia|].
  destruct r as [|ul r]; [discriminate|].
  destruct ((ul <? 0xDC00) || (0xDFFF <? ul)); intros [= <-]; cbn; lia.
Qed.

Lemma get16_none_validate p m : m <> [] -> get16 m = None -> validate16 (p ++ m) = false.
Proof.
  unfold get16. destruct m as [|uh r]; [congruence|].
  destruct ((uh <? 0xD800) || (0xDFFF <? uh)) eqn:A; [discriminate|].
  destruct (0xDBFF <? uh) eqn:B; [discriminate|].
  destruct r as [|ul r]; [|destruct ((ul <? 0xDC00) || (0xDFFF <? ul)); discriminate].
  intros _ _. unfold validate16. rewrite rev_app_distr. cbn [rev app].
  apply Bool.orb_false_elim in A. destruct A as [A1 A2]. rewrite A1, B. reflexivity.
Qed.

Lemma get16_nul t rest : t <> [] -> exists g, get16 (t ++ 0 :: rest) = Some g /\ (g_len g <= length t)%nat.
Proof.
  destruct t as [|uh r]; [congruence|intros _]. cbn [app]. unfold get16.
  destruct ((uh <? 0xD800) || (0xDFFF <? uh)); [eexists; split; [reflexivity|cbn; lia]|].
  destruct (0xDBFF <? uh); [eexists; split; [reflexivity|cbn; lia]|].
  destruct r as [|ul r]; cbn [app]; [eexists; split; [reflexivity|cbn; lia]|].
  destruct ((ul <? 0xDC00) || (0xDFFF <? ul)); eexists; (split; [reflexivity|cbn; lia]).
Qed.

Lemma get16_nul_zero rest : get16 (0 :: rest) = Some (mkgot 0 1 true).
Proof. reflexivity. Qed.

Lemma put16_eq u : put16 u =
  if u <? 0x10000 then [u] else [(0xD7C0 + u / 1024) mod 0x10000; 0xDC00 + u mod 1024].
Proof. unfold put16. change 0x3FF with (N.ones 10). rewrite N.land_ones, N.shiftr_div_pow2. reflexivity. Qed.

(* the surrogate pair of u >= 0x10000 is (0xD7C0 + u / 1024, 0xDC00 + u mod 1024); modulo 2^32 surrogate_offset is
   -(0xD7C0 * 1024 + 0xDC00), so the sum get16 forms is u / 1024 * 1024 + u mod 1024 *)
Lemma get16_put16 u rest : valid16 u -> get16 (put16 u ++ rest) = Some (mkgot u (length (put16 u)) true).
Proof.
  intros [Hu Hs]. rewrite put16_eq. destruct (N.ltb_spec u 0x10000) as [H|H]; cbn [app length get16].
  - replace ((u <? 0xD800) || (0xDFFF <? u)) with true by lia. reflexivity.
  - rewrite N.mod_small by lia. set (uh := 0xD7C0 + u / 1024). set (ul := 0xDC00 + u mod 1024).
    replace ((uh <? 0xD800) || (0xDFFF <? uh)) with false by lia.
    replace (0xDBFF <? uh) with false by lia.
    replace ((ul <? 0xDC00) || (0xDFFF <? ul)) with false by lia.
    rewrite N.shiftl_mul_pow2. change (N.shiftl 0xD800 10) with (0xD800 * 1024).
    replace (_ mod 0x100000000) with u by lia. reflexivity.
Qed.

Lemma validate16_put16 p u : valid16 u -> validate16 (p ++ put16 u) = true.
Proof.
  intros [Hu Hs]. unfold validate16. rewrite rev_app_distr, put16_eq.
  destruct (N.ltb_spec u 0x10000); cbn [rev app]; lia.
Qed.

Definition valid32 (u : N) : Prop := u < 0x110000 /\ ~ (0xD800 <= u <= 0xDFFF).
Lemma valid16_valid32 u : valid16 u -> valid32 u.
Proof. tauto. Qed.

Lemma get32_len m g : get32 m = Some g -> (1 <= g_len g <= length m)%nat.
Proof. unfold get32. destruct m as [|c r]; [discriminate|]. destruct ((c <? limit) && negb (is_surrogate c)); intros [= <-]; cbn; lia. Qed.
Lemma get32_none_validate p m : m <> [] -> get32 m = None -> validate32 (p ++ m) = false.
Proof. unfold get32. destruct m as [|c r]; [congruence|]. destruct ((c <? limit) && negb (is_surrogate c)); discriminate. Qed.
Lemma get32_nul t rest : t <> [] -> exists g, get32 (t ++ 0 :: rest) = Some g /\ (g_len g <= length t)%nat.
Proof.
  destruct t as [|c r]; [congruence|intros _]. cbn [app get32].
  destruct ((c <? limit) && negb (is_surrogate c)); eexists; (split; [reflexivity|cbn; lia]).
Qed.
Lemma get32_nul_zero rest : get32 (0 :: rest) = Some (mkgot 0 1 true).
Proof. reflexivity. Qed.
Lemma get32_put32 u rest : valid16 u -> get32 (put32 u ++ rest) = Some (mkgot u (length (put32 u)) true).
Proof. unfold valid16, get32, put32, limit, is_surrogate. intros H. cbn [app length]. replace (_ && _) with true by lia. reflexivity. Qed.
Lemma validate32_put32 p u : valid16 u -> validate32 (p ++ put32 u) = true.
Proof. reflexivity. Qed.
