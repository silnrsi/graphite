(* Proofs/LoopProofs.v — an accepted run of the rule loop is no longer than the potential [phi] of its first state (maxloop * (mu0 + 1)
   from the initial one: Properties_C02.v); the slot count stays under the growth cap. *)
From GR Require Import Model.LoopModel.
From Coq Require Import List NArith ZArith Bool Lia ZifyBool.
Set Implicit Arguments.
Unset Strict Implicit.
Local Open Scope N_scope.

Definition phi (maxloop : N) (st : lst) : N := maxloop * l_mu st + l_lc st.
Definition lc_ok (maxloop : N) (st : lst) : Prop := 1 <= l_lc st <= maxloop.

(* what the acceptor asks of an observation: the measure does not grow, and while the cursor is live either --lc stays above 0 or the
   counter is reset and the measure falls *)
Lemma lstep_admits maxloop st o : o_mu o <= l_mu st ->
  (o_live o = true -> (o_reset o = false /\ o_lc o + 1 = l_lc st /\ 1 <= o_lc o) \/ (o_reset o = true /\ o_mu o < l_mu st /\ o_lc o = maxloop)) ->
  lstep maxloop st o = Some (mklst (o_mu o) (if o_live o then o_lc o else l_lc st)).
Proof.
  unfold lstep. intros Hmu H. replace (o_mu o <=? l_mu st) with true by lia.
  destruct (o_live o); [|reflexivity]. destruct (H eq_refl) as [(-> & H2 & H3)|(-> & H1 & H2)].
  - replace (o_lc o + 1 =? l_lc st) with true by lia. replace (1 <=? o_lc o) with true by lia. reflexivity.
  - replace (o_mu o <? l_mu st) with true by lia. rewrite H2, N.eqb_refl. reflexivity.
Qed.

Lemma lstep_live_decreases maxloop st o st' :
  lc_ok maxloop st -> lstep maxloop st o = Some st' -> o_live o = true ->
  lc_ok maxloop st' /\ phi maxloop st' + 1 <= phi maxloop st.
Proof.
  unfold lstep, lc_ok, phi. intros [Hl Hu] H Hlive. rewrite Hlive in H.
  destruct (o_mu o <=? l_mu st) eqn:Hmu; cbn [negb] in H; [|discriminate].
  destruct (o_reset o).
  - destruct ((o_mu o <? l_mu st) && (o_lc o =? maxloop)) eqn:Hc; [|discriminate].
    injection H as <-. cbn [l_mu l_lc]. nia.
  - destruct ((o_lc o + 1 =? l_lc st) && (1 <=? o_lc o)) eqn:Hc; [|discriminate].
    injection H as <-. cbn [l_mu l_lc]. nia.
Qed.

Theorem loop_bounded maxloop : forall os st, lc_ok maxloop st -> laccept maxloop st os = true ->
  N.of_nat (length os) <= phi maxloop st.
Proof.
  induction os as [|o r IH]; intros st Hok Hacc.
  - cbn [length]. lia.
  - cbn [laccept] in Hacc. destruct (lstep maxloop st o) as [st'|] eqn:Hs; [|discriminate].
    destruct (o_live o) eqn:Hlive.
    + destruct (lstep_live_decreases Hok Hs Hlive) as [Hok' Hdec].
      specialize (IH st' Hok' Hacc). cbn [length]. lia.
    + destruct r; [|discriminate]. cbn [length]. unfold phi, lc_ok in *. lia.
Qed.

Definition ginv (n0 : N) (st : gst) : Prop := (0 <= g_b st)%Z /\ (Z.of_N (g_n st) + g_b st <= Z.of_N n0 + Z.of_N (n0 * growth_factor))%Z.

Lemma gstep_spec maxsize st o st' : gstep maxsize st o = Some st' ->
  match o with
  | GInsert => (1 < g_b st)%Z /\ st' = mkgst (g_n st + 1) (g_b st - 1)
  | GDelete => g_n st <> 0 /\ st' = mkgst (g_n st - 1) (g_b st)
  | GPassEnd => g_n st <= maxsize /\ st' = st
  end.
Proof.
  destruct o; cbn [gstep]; [destruct (g_b st - 1 <=? 0)%Z eqn:E | destruct (g_n st =? 0) eqn:E | destruct (maxsize <? g_n st) eqn:E];
    intros [=]; split; (lia || auto).
Qed.
Lemma gstep_inv maxsize n0 st o st' : ginv n0 st -> gstep maxsize st o = Some st' -> ginv n0 st'.
Proof. unfold ginv. intros [Hb Hs] H. apply gstep_spec in H. destruct o, H as [H ->]; cbn [g_n g_b]; lia. Qed.

Lemma grun_inv maxsize n0 : forall os st st', ginv n0 st -> grun maxsize st os = Some st' -> ginv n0 st'.
Proof.
  induction os as [|o r IH]; intros st st' Hi H; cbn [grun] in H.
  - injection H as <-. exact Hi.
  - destruct (gstep maxsize st o) as [s1|] eqn:E; [|discriminate]. eapply IH; [eapply gstep_inv; eassumption | exact H].
Qed.

Lemma grun_app maxsize : forall a b st, grun maxsize st (a ++ b) = match grun maxsize st a with None => None | Some s => grun maxsize s b end.
Proof. induction a as [|o a IH]; intros b st; cbn [grun app]; [reflexivity|]. destruct (gstep maxsize st o); [apply IH | reflexivity]. Qed.

(* the budget is what makes the mid-pass bound hold: without the end-of-pass test, inserts alone stop below n0 * 64 *)
Lemma grun_budget maxsize : forall os st st', (0 <= g_b st)%Z -> grun maxsize st os = Some st' ->
  N.of_nat (length (filter is_insert os)) + Z.to_N (g_b st') = Z.to_N (g_b st) /\ (0 <= g_b st')%Z.
Proof.
  induction os as [|o r IH]; intros st st' Hb H; cbn [grun] in H; [injection H as <-; cbn [filter length]; lia|].
  destruct (gstep maxsize st o) as [s1|] eqn:E; [|discriminate]. apply gstep_spec in E.
  destruct o, E as [E ->]; cbn [filter is_insert length]; apply IH in H; cbn [g_b] in *; lia.
Qed.
