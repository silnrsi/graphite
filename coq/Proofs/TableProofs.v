(* Proofs/TableProofs.v — (1) local contracts of Face::Table on the buffers: construction with a release callback, release of a
   decompressed buffer, move assignment; (2) soundness of the
   ledger acceptor: an accepted trace satisfies the borrow discipline of C16 in its declarative form, by induction over the
   facts that lstep_inv gives about one accepted step. *)
From GR Require Import Base.Bytes Model.TableModel.
Local Open Scope N_scope.

(* how often a buffer is in a list of outstanding ones *)
Fixpoint occ (x : N) (l : list N) : nat := match l with [] => 0%nat | y :: r => ((if N.eqb x y then 1 else 0) + occ x r)%nat end.

Lemma remove_first_occ x : forall l r, remove_first x l = Some r -> forall y, occ y l = ((if N.eqb y x then 1 else 0) + occ y r)%nat.
Proof.
  induction l as [|z l IH]; intros r H y; cbn [remove_first] in H; [discriminate|].
  destruct (N.eqb_spec x z) as [->|Hne].
  - injection H as <-. reflexivity.
  - destruct (remove_first x l) as [r'|] eqn:E; [|discriminate]. injection H as <-. cbn [occ]. rewrite (IH r' eq_refl y). lia.
Qed.
Lemma remove_first_none x : forall l, remove_first x l = None -> occ x l = 0%nat.
Proof.
  induction l as [|z l IH]; intros H; cbn [remove_first occ] in *; [reflexivity|].
  destruct (N.eqb_spec x z); [discriminate|]. destruct (remove_first x l); [discriminate|]. rewrite IH; reflexivity.
Qed.
Lemma occ_in {x l} : (0 < occ x l)%nat ->
  exists r, remove_first x l = Some r /\ forall y, occ y l = ((if N.eqb y x then 1 else 0) + occ y r)%nat.
Proof.
  intros H. destruct (remove_first x l) as [r|] eqn:E.
  - exists r. split; [reflexivity | exact (remove_first_occ x l r E)].
  - rewrite (remove_first_none x l E) in H. lia.
Qed.

Lemma release_heap has_rel w b : w_bad w = false -> (0 < occ b (w_heap w))%nat ->
  let '(w', t') := release has_rel w (mktvar (Some (Heap b)) true) in
  t_p t' = None /\ w_bad w' = false /\ w_lent w' = w_lent w /\ (forall y, occ y (w_heap w) = ((if N.eqb y b then 1 else 0) + occ y (w_heap w'))%nat).
Proof.
  intros Hb Ho. unfold release. cbn [t_comp t_p]. destruct (occ_in Ho) as (r & -> & Hr).
  repeat split; assumption.
Qed.

Lemma construct_contract w c : w_bad w = false ->
  let '(w', t) := construct true w c in
  w_bad w' = false /\
  match t_p t with
  | None => w_lent w' = w_lent w /\ w_heap w' = w_heap w
  | Some (App h) => t_comp t = false /\ w_lent w' = h :: w_lent w /\ w_heap w' = w_heap w /\ h = w_next w
  | Some (Heap b) => t_comp t = true /\ w_lent w' = w_lent w /\ w_heap w' = b :: w_heap w /\ b = w_next w + 1
  end.
Proof.
  intros Hb. destruct c as [| | |ok]; unfold construct, release; cbn [t_comp t_p w_lent w_heap w_bad w_next remove_first].
  - split; [exact Hb | split; reflexivity].
  - rewrite N.eqb_refl. split; [exact Hb | split; reflexivity].
  - repeat split; assumption || reflexivity.
  - rewrite N.eqb_refl. destruct ok; cbn [t_p t_comp w_lent w_heap w_bad remove_first].
    + repeat split; assumption || reflexivity.
    + rewrite N.eqb_refl. repeat split; assumption || reflexivity.
Qed.

Lemma assign_contract has_rel w vars dst src :
  let '(w1, vars1, src') := assign has_rel w vars dst src in
  w1 = fst (release has_rel w (nth dst vars tnull)) /\ t_p src' = None /\ vars1 = set_nth dst (mktvar (t_p src) (t_comp src)) vars.
Proof. unfold assign. destruct (release has_rel w (nth dst vars tnull)) as [w1 t]. repeat split. Qed.

(* the get_table and release_table calls for buffer h in a trace; per event *)
Definition cnt_get (h : N) (tr : list ev) : nat := length (filter (fun e => match e with EGet x => x =? h | _ => false end) tr).
Definition cnt_rel (h : N) (tr : list ev) : nat := length (filter (fun e => match e with ERel x => x =? h | _ => false end) tr).

Definition get1 (h : N) (e : ev) : nat := match e with EGet x => if x =? h then 1 else 0 | _ => 0 end.
Definition rel1 (h : N) (e : ev) : nat := match e with ERel x => if x =? h then 1 else 0 | _ => 0 end.
Lemma cnt_get_cons h e tr : cnt_get h (e :: tr) = (get1 h e + cnt_get h tr)%nat.
Proof. unfold cnt_get, get1. cbn [filter]. destruct e as [x|x| | | |]; try reflexivity. destruct (x =? h); reflexivity. Qed.
Lemma cnt_rel_cons h e tr : cnt_rel h (e :: tr) = (rel1 h e + cnt_rel h tr)%nat.
Proof. unfold cnt_rel, rel1. cbn [filter]. destruct e as [x|x| | | |]; try reflexivity. destruct (x =? h); reflexivity. Qed.

Lemma mem_occ x l : mem x l = true <-> (0 < occ x l)%nat.
Proof. induction l as [|y l IH]; cbn [mem occ]; [split; [discriminate | lia]|]. destruct (x =? y); cbn [orb]; [split; [lia | reflexivity]|]. rewrite IH. lia. Qed.

(* The acceptor read backwards: a step is accepted only from an open state; then, field by field, the state that
   results, and for each event the guard that held and what became of the outstanding buffers.  lstep is unfolded only here. *)
Lemma lstep_inv {preload s e s'} : lstep preload s e = Some s' ->
  lg_closed s = false /\
  lg_seen s' = match e with EGet h => h :: lg_seen s | _ => lg_seen s end /\
  lg_made s' = match e with EMade => true | _ => lg_made s end /\
  lg_closed s' = match e with EFailed | EDestroyed => true | _ => false end /\
  match e with
  | EGet h => lg_out s' = h :: lg_out s /\ mem h (lg_seen s) = false /\ preload && lg_made s = false
  | ERel h => remove_first h (lg_out s) = Some (lg_out s')
  | EMade => lg_out s' = lg_out s /\ lg_made s = false
  | EFailed => lg_out s' = lg_out s /\ lg_out s = [] /\ lg_made s = false
  | EDestroyed => lg_out s' = lg_out s /\ lg_out s = [] /\ lg_made s = true
  | ENull => lg_out s' = lg_out s /\ preload && lg_made s = false
  end.
Proof.
  unfold lstep. destruct (lg_closed s) eqn:C; [discriminate|]. intros E.
  destruct e as [h|h| | | |].
  - destruct (mem h (lg_seen s)); [discriminate|]. destruct (preload && lg_made s); [discriminate|]. injection E as <-. repeat split.
  - destruct (remove_first h (lg_out s)) as [o|]; [|discriminate]. injection E as <-. repeat split.
  - destruct (lg_made s); [discriminate|]. injection E as <-. repeat split.
  - destruct (lg_made s); [discriminate|]. destruct (lg_out s); [|discriminate]. injection E as <-. repeat split.
  - destruct (lg_made s); [|discriminate]. destruct (lg_out s); [|discriminate]. injection E as <-. repeat split.
  - destruct (preload && lg_made s); [discriminate|]. injection E as <-. repeat split. exact C.
Qed.

Lemma lstep_accounting {preload s e s'} : lstep preload s e = Some s' ->
  forall h, (get1 h e + occ h (lg_out s) = rel1 h e + occ h (lg_out s'))%nat.
Proof.
  intros E h. destruct (lstep_inv E) as (_ & _ & _ & _ & G). destruct e as [x|x| | | |]; cbn [get1 rel1].
  3-6: destruct G as (-> & _); reflexivity.
  - destruct G as (-> & _). cbn [occ]. rewrite (N.eqb_sym h x). reflexivity.
  - rewrite (remove_first_occ _ _ _ G h), (N.eqb_sym h x). reflexivity.
Qed.

Lemma lstep_fresh {preload s e s'} : lstep preload s e = Some s' ->
  forall h, ((if mem h (lg_seen s) then 1 else 0) + get1 h e = (if mem h (lg_seen s') then 1 else 0))%nat.
Proof.
  intros E h. destruct (lstep_inv E) as (_ & -> & _ & _ & G). destruct e as [x|x| | | |]; cbn [get1]; [|apply Nat.add_0_r ..].
  destruct G as (_ & M & _). cbn [mem]. rewrite (N.eqb_sym h x).
  destruct (N.eqb_spec x h) as [<-|_]; cbn [orb]; [rewrite M; reflexivity | apply Nat.add_0_r].
Qed.

Lemma lstep_closes {preload s e s'} : lstep preload s e = Some s' -> lg_closed s' = true ->
  lg_out s' = [] /\ (e = EDestroyed \/ e = EFailed).
Proof.
  intros E C. destruct (lstep_inv E) as (_ & _ & _ & C' & G). rewrite C' in C. destruct e; try discriminate C.
  - destruct G as (-> & -> & _). split; [reflexivity | right; reflexivity].
  - destruct G as (-> & -> & _). split; [reflexivity | left; reflexivity].
Qed.

Definition no_call (e : ev) : Prop := match e with EGet _ | ENull => False | _ => True end.

Lemma lstep_made {preload s e s'} : lstep preload s e = Some s' -> lg_made s = true ->
  lg_made s' = true /\ (preload = true -> no_call e).
Proof.
  intros E M. destruct (lstep_inv E) as (_ & _ & -> & _ & G). rewrite M in *. split; [destruct e; reflexivity|].
  intros ->. destruct e; cbn [no_call]; try exact I.
  - destruct G as (_ & _ & P). discriminate P.
  - destruct G as (_ & P). discriminate P.
Qed.

Lemma lrun_cons {preload s e tr s'} : lrun preload s (e :: tr) = Some s' -> exists s1, lstep preload s e = Some s1 /\ lrun preload s1 tr = Some s'.
Proof. cbn [lrun]. destruct (lstep preload s e) as [s1|]; [|discriminate]. intros R. exists s1. split; [reflexivity | exact R]. Qed.

Lemma lrun_app {preload a b s s'} : lrun preload s (a ++ b) = Some s' -> exists s1, lrun preload s a = Some s1 /\ lrun preload s1 b = Some s'.
Proof.
  revert s. induction a as [|e a IH]; intros s H; cbn [app lrun] in *; [exists s; split; [reflexivity | exact H]|].
  destruct (lstep preload s e) as [s1|]; [|discriminate]. exact (IH s1 H).
Qed.

Lemma lrun_accounting {preload tr s s'} : lrun preload s tr = Some s' ->
  forall h, (cnt_get h tr + occ h (lg_out s) = cnt_rel h tr + occ h (lg_out s'))%nat.
Proof.
  revert s. induction tr as [|e tr IH]; intros s R h.
  - injection R as <-. reflexivity.
  - destruct (lrun_cons R) as (s1 & E & R1). rewrite cnt_get_cons, cnt_rel_cons.
    pose proof (lstep_accounting E h) as A. pose proof (IH s1 R1 h) as A1. lia.
Qed.

Lemma lrun_fresh {preload tr s s'} : lrun preload s tr = Some s' ->
  forall h, ((if mem h (lg_seen s) then 1 else 0) + cnt_get h tr = (if mem h (lg_seen s') then 1 else 0))%nat.
Proof.
  revert s. induction tr as [|e tr IH]; intros s R h.
  - injection R as <-. apply Nat.add_0_r.
  - destruct (lrun_cons R) as (s1 & E & R1). rewrite cnt_get_cons.
    pose proof (lstep_fresh E h) as F. pose proof (IH s1 R1 h) as F1. lia.
Qed.

Lemma lrun_closed {preload tr s s'} : lrun preload s tr = Some s' -> lg_closed s = true -> tr = [].
Proof.
  intros R C. destruct tr as [|e tr]; [reflexivity|]. destruct (lrun_cons R) as (s1 & E & _).
  destruct (lstep_inv E) as [C0 _]. rewrite C in C0. discriminate C0.
Qed.

(* the last step of a run that ends closed is the one that closed it (lstep_closes); the empty run has none and ends where it began, open *)
Lemma lrun_closes {preload tr s s'} : lrun preload s tr = Some s' -> lg_closed s = false -> lg_closed s' = true ->
  lg_out s' = [] /\ exists a, tr = a ++ [EDestroyed] \/ tr = a ++ [EFailed].
Proof.
  intros R C C'. destruct tr as [|e a _] using rev_ind.
  - injection R as <-. rewrite C in C'. discriminate C'.
  - destruct (lrun_app R) as (s1 & _ & R1). destruct (lrun_cons R1) as (s2 & E & R2). injection R2 as <-.
    destruct (lstep_closes E C') as [O L]. split; [exact O|]. exists a. destruct L as [-> | ->]; [left | right]; reflexivity.
Qed.

Lemma lrun_made {preload tr s s'} : lrun preload s tr = Some s' -> lg_made s = true ->
  lg_made s' = true /\ (preload = true -> Forall no_call tr).
Proof.
  revert s. induction tr as [|e tr IH]; intros s R M.
  - injection R as <-. split; [exact M | intros _; constructor].
  - destruct (lrun_cons R) as (s1 & E & R1). destruct (lstep_made E M) as [M1 Ne].
    destruct (IH s1 R1 M1) as [M' Ntr]. split; [exact M' | intros P; constructor; [exact (Ne P) | exact (Ntr P)]].
Qed.

Lemma lrun_made_mono preload : forall tr s s', lrun preload s tr = Some s' -> lg_made s = true -> lg_closed s' = false -> lg_made s' = true.
Proof. intros tr s s' R M _. exact (proj1 (lrun_made R M)). Qed.

(* with preloadAll: the step EMade sets lg_made, and what follows it is a run from a made state *)
Lemma lrun_preload_no_call {a b s s'} : lrun true s (a ++ EMade :: b) = Some s' -> Forall no_call b.
Proof.
  intros R. destruct (lrun_app R) as (s1 & _ & Rb). destruct (lrun_cons Rb) as (s2 & E & R2).
  destruct (lstep_inv E) as (_ & _ & M & _). exact (proj2 (lrun_made R2 M) eq_refl).
Qed.

Lemma no_call_cnt_get h tr : Forall no_call tr -> cnt_get h tr = 0%nat.
Proof.
  induction 1 as [|e tr Ne _ IH]; [reflexivity|]. rewrite cnt_get_cons, IH. destruct e; try reflexivity; destruct Ne.
Qed.

Theorem ledger_sound preload tr : ledger_ok preload tr = true ->
  (forall h, cnt_rel h tr = cnt_get h tr /\ (cnt_get h tr <= 1)%nat) /\
  (forall a b h, tr = a ++ b -> (cnt_rel h a <= cnt_get h a)%nat) /\
  (exists a, tr = a ++ [EDestroyed] \/ tr = a ++ [EFailed]) /\
  (preload = true -> forall a b h, tr = a ++ EMade :: b -> cnt_get h b = 0%nat).
Proof.
  unfold ledger_ok. destruct (lrun preload lg0 tr) as [s|] eqn:R; [|discriminate]. intros C.
  destruct (lrun_closes R eq_refl C) as [O L].
  split; [|split; [|split]].
  - intros h. split.
    + pose proof (lrun_accounting R h) as A. rewrite O in A. cbn [lg_out lg0 occ] in A. lia.
    + pose proof (lrun_fresh R h) as F. destruct (mem h (lg_seen s)); lia.
  - intros a b h ->. destruct (lrun_app R) as (s1 & Ra & _).
    pose proof (lrun_accounting Ra h) as A. cbn [lg_out lg0 occ] in A. lia.
  - exact L.
  - intros -> a b h ->. apply no_call_cnt_get. exact (lrun_preload_no_call R).
Qed.
