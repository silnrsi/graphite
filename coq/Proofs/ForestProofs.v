(* Proofs/ForestProofs.v — the parent relation of the stream model stays acyclic under attachment and detachment: no attachment
   that Slot::setAttr(gr_slatAttTo) accepts closes a cycle.  (The converse does not hold: at the depth limit, count >= 100, it
   also refuses attachments that would close none.) *)
From GR Require Import Base.Bytes Model.StreamModel Proofs.StreamProofs.
Local Open Scope N_scope.

Definition par (m : amap) (s : sid) : option sid := match m s with Some a => a_par a | None => None end.
(* the n-th ancestor *)
Fixpoint climb (n : nat) (m : amap) (s : sid) : option sid :=
  match n with O => Some s | S k => match par m s with Some p => climb k m p | None => None end end.
Definition acyclic (m : amap) : Prop := forall s n, (0 < n)%nat -> climb n m s <> Some s.

Lemma climb_add : forall a b m x, climb (a + b) m x = match climb a m x with Some y => climb b m y | None => None end.
Proof. induction a as [|a IH]; intros b m x; cbn [Nat.add climb]; [reflexivity|]. destruct (par m x); [apply IH | reflexivity]. Qed.

Lemma climb_sub m m' : (forall x p, par m' x = Some p -> par m x = Some p) -> forall k y z, climb k m' y = Some z -> climb k m y = Some z.
Proof.
  intros Hsub. induction k as [|k IH]; intros y z H; cbn [climb] in *; [exact H|].
  destruct (par m' y) as [p|] eqn:E; [|discriminate]. rewrite (Hsub y p E). exact (IH p z H).
Qed.
Lemma acyclic_sub m m' : (forall x p, par m' x = Some p -> par m x = Some p) -> acyclic m -> acyclic m'.
Proof. intros Hsub Hac x n Hn Hc. exact (Hac x n Hn (climb_sub m m' Hsub n x x Hc)). Qed.

(* m' is m but for the parent of c: a climb in m' is a climb in m, or it meets c, and as far as the first c it is a climb in both *)
Lemma climb_old_or_c m m' c : (forall x, x <> c -> par m' x = par m x) -> forall n x y, climb n m' x = Some y ->
  climb n m x = Some y \/ exists i, (i < n)%nat /\ climb i m x = Some c /\ climb i m' x = Some c.
Proof.
  intros Hsame. induction n as [|n IH]; intros x y H; [left; exact H|].
  destruct (N.eq_dec x c) as [->|Hx]; [right; exists 0%nat; split; [lia|split; reflexivity]|].
  cbn [climb] in *. rewrite (Hsame x Hx) in H. destruct (par m x) as [p|] eqn:Ep; [|discriminate].
  destruct (IH p y H) as [Ho|(i & Hi & Hc & Hc')]; [left; exact Ho|right; exists (S i); split; [lia|]].
  cbn [climb]. rewrite (Hsame x Hx), Ep. split; assumption.
Qed.

Theorem add_edge_acyclic m m' c t : acyclic m ->
  (forall x, x <> c -> par m' x = par m x) -> par m' c = Some t ->
  (forall j, climb j m t <> Some c) -> acyclic m'.
Proof.
  intros Hac Hsame Hpc Hnot x n Hn Hcyc.
  destruct (climb_old_or_c m m' c Hsame n x x Hcyc) as [Ho|(i & Hi & _ & Hc)]; [exact (Hac x n Hn Ho)|].
  (* rotate the cycle so that it starts at c: c -> t ->* c *)
  assert (Hcc : climb ((n - i) + i) m' c = Some c).
  { rewrite climb_add. replace n with (i + (n - i))%nat in Hcyc by lia. rewrite climb_add, Hc in Hcyc. rewrite Hcyc. exact Hc. }
  replace (n - i + i)%nat with (S (n - 1)) in Hcc by lia. cbn [climb] in Hcc. rewrite Hpc in Hcc.
  destruct (climb_old_or_c m m' c Hsame _ t c Hcc) as [Ho|(j & _ & Hj & _)]; [exact (Hnot _ Ho)|exact (Hnot j Hj)].
Qed.

(* a parent chain that ended before its fuel holds every ancestor: the chain and the climb are walked together *)
Lemma ancestor_in_chain : forall fuel m t j c, (length (chain_up fuel m t) < fuel)%nat -> climb j m t = Some c -> In c (chain_up fuel m t).
Proof.
  induction fuel as [|f IH]; intros m t j c Hl Hc; [cbn in Hl; lia|]. cbn [chain_up length] in *.
  destruct j as [|j]; cbn [climb] in Hc; [injection Hc as <-; left; reflexivity|right].
  unfold par in Hc. destruct (m t) as [a|]; [|discriminate]. destruct (a_par a) as [p|]; [|discriminate].
  apply (IH m p j c); [lia|exact Hc].
Qed.

Lemma par_aget {m s o} : aget m s = o -> par m s = match o with Some a => a_par a | None => None end.
Proof. intros <-. reflexivity. Qed.
Lemma par_upd_attr st s a x : par (st_attr (upd_attr st s a)) x = if x =? s then a_par a else par (st_attr st) x.
Proof. unfold par, upd_attr, aset. cbn [st_attr]. destruct (x =? s); reflexivity. Qed.
Lemma par_remove_kid st p s x : par (st_attr (remove_kid st p s)) x = par (st_attr st) x.
Proof.
  unfold remove_kid. destruct (aget (st_attr st) p) as [pa|] eqn:E; [|reflexivity]. rewrite par_upd_attr.
  destruct (N.eqb_spec x p) as [->|]; [|reflexivity]. rewrite (par_aget E). reflexivity.
Qed.
Lemma par_set_par st s p x : par (st_attr (set_par st s p)) x = if x =? s then (if aget (st_attr st) s then p else None) else par (st_attr st) x.
Proof.
  unfold set_par. destruct (aget (st_attr st) s) as [a|] eqn:E; [apply par_upd_attr|].
  destruct (N.eqb_spec x s) as [->|]; [|reflexivity]. exact (par_aget E).
Qed.

(* the test of Slot::setAttr(gr_slatAttTo): a parent chain of other that ended before its bound and does not hold s *)
Lemma attach_test_sound {fuel bound d m s other} : (bound <= fuel)%nat ->
  (length (chain_up fuel m other) + d <? bound)%nat && negb (mem s (chain_up fuel m other)) = true ->
  forall j, climb j m other <> Some s.
Proof.
  intros Hb E. apply andb_prop in E. destruct E as [Ecnt Emem]. apply Nat.ltb_lt in Ecnt. apply negb_true_iff, mem_false in Emem.
  intros j Hj. apply Emem, (ancestor_in_chain fuel m other j); [lia|exact Hj].
Qed.

Theorem attach_keeps_acyclic {st s other acc st'} : acyclic (st_attr st) -> do_attach st s other acc = Ok st' -> acyclic (st_attr st').
Proof.
  intros Hac H. unfold do_attach in H. remember ((_ <? 100)%nat && _) as ok eqn:Eok in H.
  apply with_attr_ok in H. destruct H as (a & Ea & H). apply with_attr_ok in H. destruct H as (oa & Eo & H).
  destruct (negb (eqb ok acc)); [discriminate|]. destruct ok; injection H as <-; [|exact Hac].
  (* other keeps its parent, s gets other *)
  apply (add_edge_acyclic (st_attr st) _ s other Hac).
  - intros x Hx. rewrite par_set_par, par_upd_attr, (proj2 (N.eqb_neq x s) Hx).
    destruct (N.eqb_spec x other) as [->|]; [|reflexivity]. rewrite (par_aget Eo). reflexivity.
  - rewrite par_set_par, N.eqb_refl. cbn [upd_attr st_attr]. unfold aget, aset in *. destruct (s =? other); [|rewrite Ea]; reflexivity.
  - symmetry in Eok. exact (attach_test_sound (proj1 (Nat.leb_le 100 200) eq_refl) Eok).
Qed.

Theorem detach_keeps_acyclic {st s st'} : acyclic (st_attr st) -> do_detach st s = Ok st' -> acyclic (st_attr st').
Proof.
  intros Hac H. unfold do_detach in H. ok_path H; [|exact Hac]. revert Hac. apply acyclic_sub.
  intros y q. rewrite par_set_par, par_remove_kid. destruct (y =? s); [destruct (aget (st_attr (remove_kid _ _ _)) s); discriminate|auto].
Qed.

Definition par_eq (m m' : amap) : Prop := forall x, par m' x = par m x.
Lemma par_eq_acyclic {m m'} : par_eq m m' -> acyclic m -> acyclic m'.
Proof. intros He. apply acyclic_sub. intros x p. rewrite He. auto. Qed.
Lemma par_eq_refl m : par_eq m m. Proof. intros x; reflexivity. Qed.
Lemma par_eq_trans m1 m2 m3 : par_eq m1 m2 -> par_eq m2 m3 -> par_eq m1 m3.
Proof. intros A B x. rewrite B, A. reflexivity. Qed.
Lemma par_eq_aset m s a : par m s = a_par a -> par_eq m (aset m s a).
Proof. intros H x. unfold par, aset in *. destruct (N.eqb_spec x s) as [->|]; [symmetry; exact H | reflexivity]. Qed.

Lemma set_indices_par : forall l m i, par_eq m (set_indices m l i).
Proof.
  induction l as [|s r IH]; intros m i; cbn [set_indices]; [apply par_eq_refl|].
  destruct (m s) as [a|] eqn:E; [|apply IH].
  eapply par_eq_trans; [|apply IH]. apply par_eq_aset. exact (par_aget E).
Qed.
Lemma assoc_pass2_par : forall l m n cs, par_eq m (fst (assoc_pass2 m l n cs)).
Proof.
  induction l as [|s r IH]; intros m n cs; cbn [assoc_pass2]; [apply par_eq_refl|].
  destruct (m s) as [a|] eqn:E; [|apply IH].
  destruct (ext_after _ _ _ _ _) as [cs1 na]. destruct (ext_before _ _ _ _) as [cs2 nb].
  eapply par_eq_trans; [|apply IH]. apply par_eq_aset. exact (par_aget E).
Qed.

Definition keeps_parents (o : op) : Prop :=
  match o with OAppend _ _ | OInsert _ _ | ODelete _ | OAssoc _ _ | OReverse _ | OAssocChars => True | _ => False end.

(* every record they write carries the parent its slot had (none, for a new slot) *)
Lemma keeps_parents_ok {st o st'} : keeps_parents o -> apply_op st o = Ok st' -> par_eq (st_attr st) (st_attr st').
Proof.
  destruct o; intros Hk H; try destruct Hk; cbn [apply_op] in H.
  - (* append *) unfold do_append in H. ok_path H. apply par_eq_aset. erewrite par_aget by eassumption. reflexivity.
  - (* insert *) unfold do_insert in H. destruct at_ as [iss|]; ok_path H; apply par_eq_aset; cbn [set_stream st_attr]; erewrite par_aget by eassumption; [reflexivity|].
    destruct (last (map Some (st_stream st)) None) as [lst|]; [destruct (aget (st_attr st) lst)|]; reflexivity.
  - (* delete *) unfold do_delete in H. ok_path H. apply par_eq_aset. erewrite par_aget by eassumption. reflexivity.
  - (* assoc *) unfold do_assoc in H. ok_path H; [|apply par_eq_refl]. apply par_eq_aset. erewrite par_aget by eassumption. reflexivity.
  - (* reverse *) apply do_reverse_ok in H. destruct H as [->|[-> _]]; apply par_eq_refl.
  - (* associateChars *) unfold do_assocchars in H. destruct (assoc_pass2 _ _ _ _) as [m2 cs2] eqn:E. injection H as <-.
    eapply par_eq_trans; [apply set_indices_par|]. change m2 with (fst (m2, cs2)). rewrite <- E. apply assoc_pass2_par.
Qed.

(* every sequence of appends, insertions, deletions, associations, reversals, associateChars, and attachments / detachments in any
   order.  Left out: the copying operations (PUT_COPY, TEMP_COPY, free) and OLinkClusters, which the model does not interpret *)
Definition is_att (o : op) : Prop := match o with OAttach _ _ _ | ODetach _ => True | _ => False end.
Definition forest_op (o : op) : Prop := keeps_parents o \/ is_att o.
Theorem forest_ops_keep_acyclic : forall ops st st', Forall forest_op ops -> acyclic (st_attr st) -> run_ops st ops = Ok st' -> acyclic (st_attr st').
Proof.
  apply (run_ops_ind (fun st => acyclic (st_attr st))). intros st o st' [Hk|Ha] Hac E.
  - exact (par_eq_acyclic (keeps_parents_ok Hk E) Hac).
  - destruct o; try destruct Ha; cbn [apply_op] in E; [exact (detach_keeps_acyclic Hac E)|exact (attach_keeps_acyclic Hac E)].
Qed.
(* any sequence of attachments (accepted or refused, re-attachments, attempts to close cycles) and detachments *)
Theorem attach_ops_keep_acyclic : forall ops st st', Forall is_att ops -> acyclic (st_attr st) -> run_ops st ops = Ok st' -> acyclic (st_attr st').
Proof. intros ops st st' Hf. apply forest_ops_keep_acyclic. revert Hf. apply Forall_impl. intros o Ho. right. exact Ho. Qed.
Lemma st0_acyclic n rtl : acyclic (st_attr (st0 n rtl)).
Proof. intros s k Hk. destruct k; [lia|]. discriminate. Qed.
