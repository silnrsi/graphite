(* Proofs/PosProofs.v — final positioning is homogeneous of degree 1 in the scale factor (exact arithmetic), and it never looks
   deeper into a cluster than its fuel (finalise_prune) *)
From GR Require Import Base.Bytes Model.PosModel.
Local Open Scope Z_scope.

(* The equations that push a positive k outwards are collected in the rewrite base [scale]; the two about comparisons take
   0 < k from the context. *)
Lemma ltb_scale k a b : 0 < k -> (k * a <? k * b) = (a <? b).
Proof. intros Hk. apply eq_iff_eq_true. rewrite !Z.ltb_lt. symmetry. apply Z.mul_lt_mono_pos_l, Hk. Qed.
Lemma ltb_scale0 k a : 0 < k -> (k * a <? 0) = (a <? 0).
Proof. intros Hk. rewrite <- (ltb_scale k a 0 Hk), Z.mul_0_r. reflexivity. Qed.

Lemma vscale1 v : vscale 1 v = v.
Proof. destruct v as [x y]. unfold vscale. cbn [fst snd]. f_equal; lia. Qed.
Lemma vscale0 k : vscale k (0, 0) = (0, 0).
Proof. unfold vscale. cbn [fst snd]. rewrite Z.mul_0_r. reflexivity. Qed.
Lemma vadd_vscale k a b : vadd (vscale k a) (vscale k b) = vscale k (vadd a b).
Proof. unfold vadd, vscale. cbn [fst snd]. f_equal; ring. Qed.
Lemma fst_vscale k v : fst (vscale k v) = k * fst v. Proof. reflexivity. Qed.
Lemma snd_vscale k v : snd (vscale k v) = k * snd v. Proof. reflexivity. Qed.

Lemma shift_all_scale k adj ps : shift_all (k * adj) (pscale k ps) = pscale k (shift_all adj ps).
Proof.
  unfold shift_all, pscale. rewrite !map_map. apply map_ext. intros [i [x y]]. unfold vscale. cbn [fst snd]. f_equal. f_equal. ring.
Qed.
Lemma pscale_app k a b : pscale k (a ++ b) = pscale k a ++ pscale k b.
Proof. apply map_app. Qed.
Lemma vscale_vscale a b v : vscale a (vscale b v) = vscale (a * b) v.
Proof. unfold vscale. cbn [fst snd]. f_equal; ring. Qed.
Lemma pscale_pscale a b ps : pscale a (pscale b ps) = pscale (a * b) ps.
Proof. unfold pscale. rewrite map_map. apply map_ext. intros e. cbn [fst snd]. rewrite vscale_vscale. reflexivity. Qed.

#[local] Hint Rewrite vadd_vscale fst_vscale snd_vscale shift_all_scale : scale.
#[local] Hint Rewrite <- Z.mul_add_distr_l Z.mul_sub_distr_l pscale_app : scale.
#[local] Hint Rewrite ltb_scale ltb_scale0 using assumption : scale.

Definition out3 (k : Z) (r : V * Z * plist) : V * Z * plist := (vscale k (fst (fst r)), k * snd (fst r), pscale k (snd r)).

(* One level of [finalise] is three blocks: [start] places the slot itself, [sub] visits the child and then the sibling, [finish]
   applies the flood shift of a base and collects the positions.  These names belong to the proof, not to the model; [finalise_S]
   says that they spell out the body of the model. *)

Definition start (k : Z) (p : sp) (isroot : bool) (base : V) (cmin : Z) : V * V * Z :=
  let shift := vscale k (p_shx p, p_shy p) in
  let pos0 := vadd base shift in
  if isroot then (pos0, vadd base (vscale k (p_tadv p, p_advy p)), fst pos0)
  else
    let pos := vadd pos0 (vscale k (p_atx p, p_aty p)) in
    let tadvv := if p_advpos p then fst pos + k * p_tadv p - fst shift else 0 in
    (pos, (tadvv, 0), if (p_advpos p || (fst pos <? 0)) && (fst pos <? cmin) then fst pos else cmin).

(* a child or sibling subtree [t]: nothing happens for a Leaf; otherwise its result replaces [res] when it reaches further right
   (and [cond] allows it), the cluster minimum and the positions are the subtree's *)
Definition sub (f : nat) (k : Z) (t : bt) (base : V) (cmin : Z) (cond : bool) (res : V) : V * Z * plist :=
  match t with
  | Leaf => (res, cmin, [])
  | _ => let '(tres, c, ps) := finalise f k t false base cmin in
         ((if cond && (fst res <? fst tres) then tres else res), c, ps)
  end.

(* a base whose cluster starts left of it is moved right with its children [ps1] (not its siblings [ps2]) *)
Definition finish (p : sp) (isroot : bool) (base pos : V) (ps1 : plist) (r : V * Z * plist) : V * Z * plist :=
  let '(res3, cmin3, ps2) := r in
  if isroot && (cmin3 <? fst base) then
    let adj := fst pos - cmin3 in
    ((fst res3 + adj, snd res3), cmin3, (p_id p, (fst pos + adj, snd pos)) :: shift_all adj ps1 ++ ps2)
  else (res3, cmin3, (p_id p, pos) :: ps1 ++ ps2).

(* The siblings of a base are the other bases, which [finalise] leaves alone: for a base the sibling counts as absent. *)
Lemma finalise_S f k p child sib isroot base cmin :
  finalise (S f) k (BNode p child sib) isroot base cmin =
  let '(pos, res, cmin1) := start k p isroot base cmin in
  let '(res2, cmin2, ps1) := sub f k child pos cmin1 (isroot || p_advpos p) res in
  finish p isroot base pos ps1 (sub f k (if isroot then Leaf else sib) base cmin2 true res2).
Proof. destruct isroot, sib; reflexivity. Qed.

Lemma out3_origin k cmin ps : out3 k ((0, 0), cmin, ps) = ((0, 0), k * cmin, pscale k ps).
Proof. unfold out3. rewrite vscale0. reflexivity. Qed.

Lemma start_homogeneous k p isroot base cmin : 0 < k ->
  start k p isroot (vscale k base) (k * cmin) = (let '(pos, res, c) := start 1 p isroot base cmin in (vscale k pos, vscale k res, k * c)).
Proof.
  intros Hk. unfold start. rewrite !vscale1, !Z.mul_1_l. autorewrite with scale.
  destruct isroot; [reflexivity|].
  (* the two choices of an attached slot: 0 = k * 0, and k goes out of the [if] *)
  destruct (p_advpos p), ((_ || _) && _); unfold vscale; cbn [fst snd]; rewrite ?Z.mul_0_r; reflexivity.
Qed.

Lemma sub_homogeneous f k : 0 < k ->
  (forall t base cmin, finalise f k t false (vscale k base) (k * cmin) = out3 k (finalise f 1 t false base cmin)) ->
  forall t base cmin cond res, sub f k t (vscale k base) (k * cmin) cond (vscale k res) = out3 k (sub f 1 t base cmin cond res).
Proof.
  intros Hk IH t base cmin cond res. destruct t as [|p c s]; [reflexivity|].
  unfold sub. rewrite IH. destruct (finalise f 1 (BNode p c s) false base cmin) as [[tres c'] ps].
  unfold out3. cbn [fst snd]. autorewrite with scale. destruct (cond && (fst res <? fst tres)); reflexivity.
Qed.

Lemma finish_homogeneous k p isroot base pos ps1 r : 0 < k ->
  finish p isroot (vscale k base) (vscale k pos) (pscale k ps1) (out3 k r) = out3 k (finish p isroot base pos ps1 r).
Proof.
  intros Hk. destruct r as [[res3 cmin3] ps2]. unfold finish, out3. cbn [fst snd]. autorewrite with scale.
  destruct (isroot && (cmin3 <? fst base)); reflexivity.
Qed.

Theorem finalise_homogeneous fuel : forall k, 0 < k -> forall t isroot base cmin,
  finalise fuel k t isroot (vscale k base) (k * cmin) = out3 k (finalise fuel 1 t isroot base cmin).
Proof.
  induction fuel as [|f IH]; intros k Hk t isroot base cmin;
    (destruct t as [|p child sib]; [cbn [finalise]; rewrite out3_origin; reflexivity|]).
  - (* cut off: the slot stays at (0,0) *)
    cbn [finalise]. rewrite out3_origin. unfold pscale. cbn [map fst snd]. rewrite vscale0. reflexivity.
  - (* the four steps in turn, with the induction hypothesis for the two subtrees *)
    pose proof (fun t => IH k Hk t false) as IHsub.
    rewrite !finalise_S.
    rewrite (start_homogeneous k p isroot base cmin Hk). destruct (start 1 p isroot base cmin) as [[pos res] cmin1].
    rewrite (sub_homogeneous f k Hk IHsub). destruct (sub f 1 child pos cmin1 (isroot || p_advpos p) res) as [[res2 cmin2] ps1].
    unfold out3 at 1.
    rewrite (sub_homogeneous f k Hk IHsub). apply finish_homogeneous, Hk.
Qed.

(* Segment::positionSlots: the whole run of bases *)
Theorem position_bases_homogeneous k : 0 < k -> forall bases cur,
  position_bases k bases (vscale k cur) = (let r := position_bases 1 bases cur in (vscale k (fst r), pscale k (snd r))).
Proof.
  intros Hk. induction bases as [|b rest IH]; intros cur; cbn [position_bases].
  - reflexivity.
  - rewrite fst_vscale.
    rewrite (finalise_homogeneous 101 k Hk b true cur (fst cur)).
    destruct (finalise 101 1 b true cur (fst cur)) as [[res c] ps]. unfold out3. cbn [fst snd].
    rewrite IH. destruct (position_bases 1 rest res) as [fin ps']. cbn [fst snd]. rewrite pscale_app. reflexivity.
Qed.

(* The recursion over a cluster is cut off along every path, whether it follows child or sibling links: what finalise computes
   on a tree is what it computes on the tree pruned at [fuel] links from the root — deeper nodes are never visited *)
Fixpoint prune (fuel : nat) (t : bt) : bt :=
  match fuel, t with
  | _, Leaf => Leaf
  | O, BNode p _ _ => BNode p Leaf Leaf
  | S f, BNode p c s => BNode p (prune f c) (prune f s)
  end.
Fixpoint link_depth (t : bt) : nat := match t with Leaf => O | BNode _ c s => S (Nat.max (link_depth c) (link_depth s)) end.
Lemma prune_depth : forall fuel t, (link_depth (prune fuel t) <= S fuel)%nat.
Proof.
  induction fuel as [|f IH]; intros [|p c s]; cbn [prune link_depth]; try lia.
  pose proof (IH c). pose proof (IH s). lia.
Qed.

(* [sub] looks at its subtree in two ways: is it a Leaf (pruning keeps that), and what does [finalise] return on it *)
Lemma sub_prune f k : (forall t base cmin, finalise f k t false base cmin = finalise f k (prune f t) false base cmin) ->
  forall t base cmin cond res, sub f k (prune f t) base cmin cond res = sub f k t base cmin cond res.
Proof.
  intros IH t base cmin cond res. unfold sub. rewrite <- IH. destruct f, t; reflexivity.
Qed.

Theorem finalise_prune : forall fuel k t isroot base cmin, finalise fuel k t isroot base cmin = finalise fuel k (prune fuel t) isroot base cmin.
Proof.
  induction fuel as [|f IH]; intros k t isroot base cmin; (destruct t as [|p c s]; [reflexivity|]).
  - reflexivity.
  - pose proof (fun t => IH k t false) as IHsub.
    cbn [prune]. rewrite !finalise_S. destruct (start k p isroot base cmin) as [[pos res] cmin1].
    rewrite (sub_prune f k IHsub). destruct (sub f k c pos cmin1 (isroot || p_advpos p) res) as [[res2 cmin2] ps1].
    destruct isroot; [reflexivity|]. rewrite (sub_prune f k IHsub). reflexivity.
Qed.
