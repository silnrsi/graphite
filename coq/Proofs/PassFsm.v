(* Proofs/PassFsm.v — the two models of Pass::readPass meet: on every pass whose offset arithmetic Model/PassModel.v accepts, the
   table reads of Model/FsmModel.v (ranges, rule-map offsets, rule map, pre-context bounds, start states, sort keys, transition
   table) all lie inside the pass — read_fsm does not trap.  FsmModel repeats PassModel's offsets; this is the proof that the
   repetition is right wherever it matters (a wrong offset in either would make a read the other has not bounded). *)
From GR Require Import Base.Mem Base.MemFacts Model.FsmModel Proofs.PassProofs.

Section PassFsm.
  Variable t : mem.
  Hypothesis Hwf : mem_wf t.

  Local Open Scope N_scope.
  Lemma read16s_some : forall k p, p + 2 * N.of_nat k <= tlen t -> exists l, read16s t p k = Some l.
  Proof.
    induction k as [|k IH]; intros p H; cbn [read16s]; [eexists; reflexivity|].
    destruct (r16_some t p Hwf ltac:(lia)) as [v Ev]. rewrite Ev.
    destruct (IH (p + 2) ltac:(lia)) as [r Er]. rewrite Er. eexists; reflexivity.
  Qed.
  Lemma read16s_nth : forall k p l i, read16s t p k = Some l -> (i < k)%nat -> r16 t (p + 2 * N.of_nat i) = Some (nth i l 0).
  Proof.
    induction k as [|k IH]; intros p l i H Hi; [lia|]. cbn [read16s] in H.
    destruct (r16 t p) as [v|] eqn:Ev; [|discriminate]. destruct (read16s t (p + 2) k) as [r|] eqn:Er; [|discriminate].
    injection H as <-. destruct i as [|i]; cbn [nth].
    - replace (p + 2 * N.of_nat 0) with p by lia. exact Ev.
    - replace (p + 2 * N.of_nat (S i)) with (p + 2 + 2 * N.of_nat i) by lia. apply (IH _ _ _ Er). lia.
  Qed.
  Lemma read_ranges_safe ng ncols : forall k p cols, p + 6 * N.of_nat k <= tlen t -> read_ranges t p k ng ncols cols <> None.
  Proof.
    induction k as [|k IH]; intros p cols H; cbn [read_ranges]; [discriminate|].
    destruct (r16_some t p Hwf ltac:(lia)) as [a Ea]. destruct (r16_some t (p + 2) Hwf ltac:(lia)) as [b Eb].
    destruct (r16_some t (p + 4) Hwf ltac:(lia)) as [c Ec]. rewrite Ea, Eb, Ec.
    destruct (_ || _); [discriminate|]. destruct (upd_range _ _ _ _); [|discriminate]. apply IH. lia.
  Qed.

  Theorem read_fsm_fits : pass_layout t -> read_fsm t <> FTrap.
  Proof.
    intros (nr & nst & nt & ns & nc & nrg & lastg & ne & minp & maxp & R1 & R5 & R6 & R7 & R8 & R9 & R10 & R11 & R12 & R13 & Hfit).
    unfold read_fsm. rewrite R1, R5, R6, R7, R8, R9.
    destruct (nr =? 0); [discriminate|]. rewrite R10.
    destruct (read16s_some (S (N.to_nat ns)) (40 + 6 * nrg) ltac:(lia)) as [omap Eomap]. rewrite Eomap.
    pose proof (read16s_nth _ _ _ (N.to_nat ns) Eomap ltac:(lia)) as Hne. rewrite N2Nat.id, R11 in Hne. injection Hne as Hne. rewrite <- Hne.
    destruct (read16s_some (N.to_nat ne) (40 + 6 * nrg + 2 * (ns + 1)) ltac:(lia)) as [rmap Ermap]. rewrite Ermap, R12, R13.
    set (mN := nt * nc) in *.
    destruct (read16s_some (N.to_nat nr) (40 + 6 * nrg + 2 * (ns + 1) + 2 * ne + 2 + 2 * (maxp - minp + 1)) ltac:(lia)) as [srt Esrt]. rewrite Esrt.
    destruct (read16s_some (N.to_nat (maxp - minp + 1)) (40 + 6 * nrg + 2 * (ns + 1) + 2 * ne + 2) ltac:(lia)) as [starts Estarts]. rewrite Estarts.
    match goal with |- context [read16s t ?p (N.to_nat mN)] => destruct (read16s_some (N.to_nat mN) p ltac:(lia)) as [trans Etrans]; rewrite Etrans end.
    match goal with |- context [read_ranges t ?p ?k ?a ?b ?c] => pose proof (read_ranges_safe a b k p c ltac:(lia)) as Hrr; destruct (read_ranges t p k a b c) as [[cols|]|] end;
      [|discriminate|congruence].
    destruct (existsb _ rmap); [discriminate|]. destruct (existsb _ starts); [discriminate|]. destruct (existsb _ trans); [discriminate|].
    destruct (state_rules _ _ _ _ _ _ _ _); discriminate.
  Qed.
End PassFsm.
