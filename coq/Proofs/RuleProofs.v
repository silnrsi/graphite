(* Proofs/RuleProofs.v — facts about the reference semantics of a pass: the selected rule is the matching rule of highest precedence
   (select_best); a matching rule fits into the stream; the list operations and the positioning actions keep the lengths they should.
   (What a substitution rule does to the stream, and with it the termination of the pass, is in Proofs/LoopBridge.v.) *)
From GR Require Import Model.RuleModel.
From Coq Require Import List NArith ZArith Bool Lia.
Import ListNotations.
Set Implicit Arguments.
Unset Strict Implicit.

Section RuleProofs.
  Variable adv : N -> Z.

  (* precedence: longer sort key first, then earlier rule *)
  Definition better (k : nat) (r : rule) (k' : nat) (r' : rule) : Prop :=
    (r_sort r' < r_sort r)%nat \/ (r_sort r' = r_sort r /\ (k <= k')%nat).

  (* what [select] holds in [best] once it is past the rules [pre]: their precedence maximum among those that match *)
  Definition is_best (l : list slot) (i : nat) (pre : list rule) (best : option (nat * rule)) : Prop :=
    match best with
    | None => forall r, In r pre -> rule_matches r l i = false
    | Some (kb, b) => nth_error pre kb = Some b /\ rule_matches b l i = true /\
                      forall j r', nth_error pre j = Some r' -> rule_matches r' l i = true -> better kb b j r'
    end.

  Lemma is_best_some l i pre r kb b : nth_error (pre ++ [r]) kb = Some b -> rule_matches b l i = true ->
    (forall j r', nth_error pre j = Some r' -> rule_matches r' l i = true -> better kb b j r') ->
    (rule_matches r l i = true -> better kb b (length pre) r) -> is_best l i (pre ++ [r]) (Some (kb, b)).
  Proof.
    intros Hn Hm Hall Hr. split; [exact Hn|]. split; [exact Hm|]. intros j r' E M'.
    destruct (Nat.lt_ge_cases j (length pre)) as [H|H]; [rewrite nth_error_app1 in E by exact H; exact (Hall j r' E M')|].
    rewrite nth_error_app2 in E by exact H. destruct (j - length pre)%nat as [|[|q]] eqn:Ej; cbn in E; [|discriminate..].
    injection E as <-. replace j with (length pre) by lia. exact (Hr M').
  Qed.

  Lemma is_best_snoc l i pre r best : is_best l i pre best ->
    is_best l i (pre ++ [r]) (if rule_matches r l i then match best with
                                                         | Some (_, b) => if Nat.ltb (r_sort b) (r_sort r) then Some (length pre, r) else best
                                                         | None => Some (length pre, r)
                                                         end else best).
  Proof.
    assert (Hr : nth_error (pre ++ [r]) (length pre) = Some r) by (rewrite nth_error_app2, Nat.sub_diag by lia; reflexivity).
    assert (Hk : forall kb b, nth_error pre kb = Some b -> nth_error (pre ++ [r]) kb = Some b /\ (kb < length pre)%nat).
    { intros kb b E. assert (kb < length pre)%nat by (apply nth_error_Some; congruence). rewrite nth_error_app1; auto. }
    destruct (rule_matches r l i) eqn:M, best as [[kb b]|]; cbn [is_best].
    - intros (Hn & Hm & Hall). destruct (Hk _ _ Hn) as [Hn' Hlt]. destruct (Nat.ltb_spec (r_sort b) (r_sort r)).
      + apply is_best_some; [exact Hr | exact M | | unfold better; lia]. intros j r' E M'. specialize (Hall j r' E M'). unfold better in *. lia.
      + apply is_best_some; [exact Hn' | exact Hm | exact Hall | unfold better; lia].
    - intros Hnone. apply is_best_some; [exact Hr | exact M | | unfold better; lia].
      intros j r' E M'. rewrite (Hnone r' (nth_error_In _ _ E)) in M'. discriminate.
    - intros (Hn & Hm & Hall). apply is_best_some; [exact (proj1 (Hk _ _ Hn)) | exact Hm | exact Hall | congruence].
    - intros Hnone r' Hin. apply in_app_or in Hin. destruct Hin as [Hin|[<-|[]]]; [exact (Hnone r' Hin)|exact M].
  Qed.

  Lemma select_is_best l i : forall rest pre best, is_best l i pre best -> is_best l i (pre ++ rest) (select rest l i (length pre) best).
  Proof.
    induction rest as [|r rest IH]; intros pre best H; cbn [select]; [rewrite app_nil_r; exact H|].
    replace (pre ++ r :: rest) with ((pre ++ [r]) ++ rest) by (rewrite <- app_assoc; reflexivity).
    replace (S (length pre)) with (length (pre ++ [r])) by (rewrite app_length; cbn; lia). apply IH, is_best_snoc, H.
  Qed.
  Lemma select_best rules l i : is_best l i rules (select rules l i 0 None).
  Proof. apply (@select_is_best l i rules [] None). intros r []. Qed.

  Theorem select_sound rules l i kr r : select rules l i 0 None = Some (kr, r) ->
    nth_error rules kr = Some r /\ rule_matches r l i = true /\
    (forall j r', nth_error rules j = Some r' -> rule_matches r' l i = true -> better kr r j r').
  Proof. intros H. pose proof (select_best rules l i) as S. rewrite H in S. exact S. Qed.

  Theorem select_none rules l i : select rules l i 0 None = None <-> forall r, In r rules -> rule_matches r l i = false.
  Proof.
    pose proof (select_best rules l i) as S. destruct (select rules l i 0 None) as [[kr r]|]; [|tauto].
    destruct S as (Hn & Hm & _). split; [discriminate|]. intros Hall. rewrite (Hall r (nth_error_In _ _ Hn)) in Hm. discriminate.
  Qed.

  Lemma matches_from_length : forall pat l, matches_from pat l = true -> (length pat <= length l)%nat.
  Proof.
    induction pat as [|c pr IH]; intros l H; [cbn; lia|]. destruct l as [|s lr]; cbn [matches_from] in H; [discriminate|].
    apply andb_prop in H. destruct H as [_ H]. specialize (IH lr H). cbn [length]. lia.
  Qed.
  Lemma rule_matches_bounds r l i : rule_matches r l i = true -> (r_pre r <= i)%nat /\ (r_pre r < r_sort r)%nat /\ (i - r_pre r + r_sort r <= length l)%nat.
  Proof.
    unfold rule_matches. rewrite !andb_true_iff, Nat.leb_le, Nat.ltb_lt. intros [[[H1 H2] H3] _].
    apply matches_from_length in H3. rewrite skipn_length in H3. unfold r_sort in *. lia.
  Qed.

  Lemma insert_at_length : forall l k x, length (insert_at l k x) = S (length l).
  Proof. induction l as [|y l IH]; intros [|k] x; cbn [insert_at length]; try reflexivity. rewrite IH. reflexivity. Qed.
  Lemma remove_at_length : forall l k, (k < length l)%nat -> length (remove_at l k) = (length l - 1)%nat.
  Proof. induction l as [|y l IH]; intros [|k] H; cbn [length] in H; try lia; cbn [remove_at length]; [lia|]. rewrite (IH k) by lia. lia. Qed.
  Lemma upd_length : forall l k f, length (upd l k f) = length l.
  Proof. induction l as [|x l IH]; intros [|k] f; cbn [upd length]; try reflexivity; rewrite IH; reflexivity. Qed.
  Lemma newslot_bud a len a' : newslot a len = Some a' -> a_bud a' = a_bud a.
  Proof. unfold newslot. destruct (a_free a); [destruct (Nat.ltb (a_cap a) len); [discriminate|]|]; intros E; injection E as <-; reflexivity. Qed.

  Lemma attach_length l c t : length (attach l c t) = length l.
  Proof.
    unfold attach. destruct (nth_error l c) as [sc|]; [|reflexivity]. destruct (nth_error l t) as [st_|]; [|reflexivity].
    destruct (Nat.eqb c t || _); [reflexivity|].
    set (l1 := match s_par sc with Some p => _ | None => l end).
    assert (H1 : length l1 = length l) by (unfold l1; destruct (s_par sc); [rewrite !upd_length|]; reflexivity).
    destruct (Nat.ltb _ 100 && _); [rewrite !upd_length|]; exact H1.
  Qed.
  Lemma apply_acts_pos_length r orig st j : forall acts l, length (apply_acts_pos adv r orig st j acts l) = length l.
  Proof.
    induction acts as [|a rest IH]; intros l; cbn [apply_acts_pos]; [reflexivity|]. rewrite IH.
    destruct a; try (rewrite upd_length; reflexivity); try reflexivity.
    - destruct (read_src r orig _ j ref); [rewrite upd_length|]; reflexivity.
    - destruct (Z.of_nat (st + j) + ref <? 0)%Z; [reflexivity | apply attach_length].
    - destruct (read_src r orig _ j ref); [destruct (ref =? 0)%Z; [|rewrite upd_length]|]; reflexivity.
  Qed.
  Lemma apply_items_pos_length r orig st : forall n j acts l, length (apply_items_pos adv r orig st j n acts l) = length l.
  Proof. induction n as [|n IH]; intros j acts l; cbn [apply_items_pos]; [reflexivity|]. rewrite IH, apply_acts_pos_length. reflexivity. Qed.

  Lemma fire_pos_progress r l i l' i' : rule_matches r l i = true -> fire_pos adv r l i = (l', i') ->
    (i' <= length l')%nat /\ (length l' - i' < length l - i)%nat.
  Proof. unfold fire_pos. intros Hm E. apply rule_matches_bounds in Hm. injection E as <- <-. rewrite apply_items_pos_length. lia. Qed.
End RuleProofs.
