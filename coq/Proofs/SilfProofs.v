(* Proofs/SilfProofs.v — Face::readGraphite / Silf::readGraphite never read outside the Silf table, whatever its bytes; what an
   accepted subtable header guarantees.  The directory loop reads entry i without testing the table length: it is safe because every
   subtable accepted before it is at least 31 bytes long and the offsets increase. *)
From GR Require Import Base.Mem Base.MemFacts Model.ClassMapModel Model.PassModel Model.SilfModel Proofs.ClassMapProofs Proofs.PassProofs.
Local Open Scope N_scope.

Lemma rdblock_some t : mem_wf t -> forall k p, p + N.of_nat k <= tlen t -> exists l, rdblock t p k = Some l /\ length l = k.
Proof.
  intros W. induction k as [|k IH]; intros p H; cbn [rdblock].
  - exists []. split; reflexivity.
  - destruct (rdb_some t p W ltac:(lia)) as [b ->]. destruct (IH (p + 1) ltac:(lia)) as [r [-> Hl]].
    exists (b :: r). split; [reflexivity | cbn [length]; congruence].
Qed.

Lemma msub_wf t off len : mem_wf t -> off + len <= tlen t -> mem_wf (msub t off len).
Proof.
  intros W H i. unfold msub; cbn [m_rd m_len]. destruct (N.ltb_spec i len) as [Hi|Hi].
  - split; [intros _; exact Hi|]. intros _. apply W. unfold tlen in H. lia.
  - split; [intros C; exfalso; apply C; reflexivity | lia].
Qed.

Lemma read_justs_some t : mem_wf t -> forall k p, p + 8 * N.of_nat k <= tlen t -> exists l, read_justs t p k = Some l.
Proof.
  intros W. induction k as [|k IH]; intros p H; cbn [read_justs]; [eexists; reflexivity|].
  destruct (rdblock_some t W 4 p ltac:(lia)) as [b [-> Hl]].
  destruct b as [|a [|b [|c [|d [|e r]]]]]; try discriminate Hl.
  destruct (IH (p + 8) ltac:(lia)) as [r ->]. eexists; reflexivity.
Qed.
Lemma read_pseudos_some t : mem_wf t -> forall k p, p + 6 * N.of_nat k <= tlen t -> exists l, read_pseudos t p k = Some l.
Proof.
  intros W. induction k as [|k IH]; intros p H; cbn [read_pseudos]; [eexists; reflexivity|].
  destruct (r32_some t p W ltac:(lia)) as [u ->]. destruct (r16_some t (p + 4) W ltac:(lia)) as [g ->].
  destruct (IH (p + 6) ltac:(lia)) as [r ->]. eexists; reflexivity.
Qed.

Lemma first_err_none l : first_err l = None -> existsb fst l = false.
Proof. induction l as [|[c e] r IH]; cbn [first_err existsb fst]; [reflexivity|]. destruct c; [discriminate|exact IH]. Qed.

Definition pass_in (l passes_start : N) (x : N * N * N) : Prop := let '(ps, pe, pt) := x in passes_start <= ps /\ ps <= pe /\ pe <= l /\ pt <= 3.

Lemma pass_type_le i jp pp sp : pass_type i jp pp sp <= 3.
Proof. unfold pass_type. destruct (jp <=? i); [lia|]. destruct (pp <=? i); [lia|]. destruct (sp <=? i); lia. Qed.

(* the pass loop: no read outside the table as long as the offset array lies inside the subtable; the slices recorded are inside it *)
Lemma read_passes_spec t s l o pstart jp pp sp acoll flags boxes : mem_wf t -> s + l <= tlen t ->
  forall k i acc, Forall (pass_in l pstart) acc -> o + 4 * (i + N.of_nat k) + 4 <= l ->
    match read_passes t s l o pstart k i jp pp sp acoll flags boxes acc with
    | inl (STrap | SOk _) => False
    | inl _ => True
    | inr ps => Forall (pass_in l pstart) ps /\ length ps = (length acc + k)%nat
    end.
Proof.
  intros W Hin. induction k as [|k IH]; intros i acc F Ho; cbn [read_passes].
  - split; [apply Forall_rev; exact F | rewrite rev_length; lia].
  - destruct (r32_some t (s + o + 4 * i) W ltac:(lia)) as [ps ->]. destruct (r32_some t (s + o + 4 * i + 4) W ltac:(lia)) as [pe ->].
    destruct (pe <? ps) eqn:E1; [exact I|].
    destruct (ps <? pstart) eqn:E2; [exact I|].
    destruct (l <? pe) eqn:E3; [exact I|].
    match goal with |- context [read_pass ?b ?z ?c] => pose proof (read_pass_ok b (msub_wf t (s + ps) (pe - ps) W ltac:(lia)) z c) as Hp; destruct (read_pass b z c) as [| |rs] end.
    + exact Hp.
    + exact I.
    + assert (F' : Forall (pass_in l pstart) ((ps, pe, pass_type i jp pp sp) :: acc)).
      { constructor; [|exact F]. unfold pass_in. pose proof (pass_type_le i jp pp sp). lia. }
      specialize (IH (i + 1) _ F' ltac:(lia)). rewrite Nat.add_succ_r. exact IH.
Qed.

Definition hdr_ok (l na : N) (h : shdr) : Prop :=
  h_apseudo h < na /\ h_abreak h < na /\ h_abidi h < na /\ h_amirror h < na /\
  h_spass h <= h_ppass h /\ h_ppass h <= h_jpass h /\ h_jpass h <= h_npass h /\ h_npass h <= 128 /\
  (h_bpass h = 255 \/ (h_jpass h <= h_bpass h /\ h_bpass h <= h_npass h)) /\ h_alig h <= 127 /\ 31 <= l /\
  length (h_passes h) = N.to_nat (h_npass h) /\
  exists pstart, pstart < l /\ Forall (pass_in l pstart) (h_passes h).

(* Silf::readGraphite on the subtable [s, s + l) of the table *)
Theorem read_silf_sub_spec t s l version ng na boxes : mem_wf t -> s + l <= tlen t ->
  match read_silf_sub t s l version ng na boxes with
  | STrap => False
  | SOk h => hdr_ok l na h
  | _ => True
  end.
Proof.
  intros W Hin. unfold read_silf_sub.
  destruct (0x00060000 <=? version); [exact I|].
  set (v3 := 0x00030000 <=? version). clearbody v3.
  destruct (if v3 then l <? 28 else l <? 20) eqn:E0; [exact I|].
  set (p0 := if v3 then 8 else 0).
  assert (Hp0 : p0 + 20 <= l) by (unfold p0; destruct v3; lia).
  (* only this bound is used below; the two cases of p0 would be split again by every lia *)
  clearbody p0. clear E0.
  destruct (rdblock_some t W 20 (s + p0) ltac:(lia)) as [h [-> _]].
  set (npass := b8 h 6). set (spass := b8 h 7). set (ppass := b8 h 8). set (jpass := b8 h 9).
  set (njust := b8 h 19). set (p1 := p0 + 20).
  destruct (first_err _) eqn:FE; [exact I|]. apply first_err_none in FE. cbn [existsb fst] in FE.
  destruct (read_justs_some t W (N.to_nat njust) (s + p1) ltac:(lia)) as [justs ->].
  set (p2 := p1 + 8 * njust).
  destruct (l <=? p2 + 10) eqn:E1; [exact I|].
  destruct (rdblock_some t W 10 (s + p2) ltac:(lia)) as [g [-> _]].
  set (ncrit := b8 g 9). set (p3 := p2 + 10 + 2 * ncrit + 1).
  destruct (l <=? p3) eqn:E2; [exact I|].
  destruct (rdb_some t (s + p3) W ltac:(lia)) as [nscript ->].
  set (p4 := p3 + 1 + 4 * nscript).
  destruct (l <=? p4 + 6) eqn:E3; [exact I|].
  destruct (r16_some t (s + p4) W ltac:(lia)) as [gend ->]. destruct (r32_some t (s + p4 + 2) W ltac:(lia)) as [pstart ->].
  destruct (first_err _) eqn:FE2; [exact I|]. apply first_err_none in FE2. cbn [existsb fst] in FE2.
  set (p5 := p4 + 6 + 4 * npass).
  destruct (pstart <=? p5 + 2) eqn:E4; [exact I|].
  destruct (r16_some t (s + p5) W ltac:(lia)) as [npseudo ->].
  destruct (pstart <=? p5 + 8 + npseudo * 6) eqn:E5; [exact I|].
  destruct (read_pseudos_some t W (N.to_nat npseudo) (s + (p5 + 8)) ltac:(lia)) as [pseudos ->].
  set (p6 := p5 + 8 + 6 * npseudo).
  pose proof (read_class_map_safe t (s + p6) (pstart - p6) version W ltac:(lia)) as Hcm.
  destruct (read_class_map t (s + p6) (pstart - p6) version) as [| |nclass nlinear offs data]; [contradiction|exact I|].
  destruct (pstart - p6 <? N.of_nat (length data)); [exact I|].
  (* the npass + 1 pass offsets end at p5, and p5 + 2 < pstart < l *)
  pose proof (read_passes_spec t s l (p4 + 2) pstart jpass ppass spass (b8 g 5) (b8 h 11) boxes W Hin (N.to_nat npass) 0 [] (Forall_nil _) ltac:(lia)) as Hps.
  destruct (read_passes t s l (p4 + 2) pstart (N.to_nat npass) 0 jpass ppass spass (b8 g 5) (b8 h 11) boxes []) as [r|passes].
  - destruct r; try exact I; contradiction.
  - destruct Hps as [Hf Hl]. cbn [length] in Hl. unfold hdr_ok. cbn [h_apseudo h_abreak h_abidi h_amirror h_spass h_ppass h_jpass h_npass h_bpass h_alig h_passes].
    (* all from the second chain of tests, except 31 <= l: the 20 header bytes and the 10 after the justification levels end before l *)
    clear - E1 FE2 Hf Hl.
    repeat match goal with |- _ /\ _ => split end; [lia ..|exists pstart; split; [lia | exact Hf]].
Qed.

Corollary read_silf_sub_safe t s l version ng na boxes : mem_wf t -> s + l <= tlen t -> read_silf_sub t s l version ng na boxes <> STrap.
Proof. intros W H E. pose proof (read_silf_sub_spec t s l version ng na boxes W H) as S. rewrite E in S. exact S. Qed.

(* the directory.  Invariant of the loop at entry i: the cursor is at most 12 + 4 i, the table is at least max(20, 31 i) bytes long, and
   while an entry is left the offset about to be read (the previous entry's [next]) is at least 31 i. *)
Section Dir.
  Variables (t : mem) (ng na : N) (boxes : bool).
  Hypothesis W : mem_wf t.
  Let P (h : shdr) : Prop := exists l, l <= tlen t /\ hdr_ok l na h.
  Let fine (r : list shdr * option (N * sres)) : Prop := Forall P (fst r) /\ forall j, snd r <> Some (j, STrap).

  Lemma dir_stop acc (end_ : option (N * sres)) : Forall P acc -> (forall j, end_ <> Some (j, STrap)) -> fine (rev acc, end_).
  Proof. intros F H. split; cbn [fst snd]; [apply Forall_rev; exact F|exact H]. Qed.

  Lemma read_silf_dir_spec version nsilf : 20 <= tlen t ->
    forall k i p acc, Forall P acc -> N.of_nat k + i = nsilf -> p <= 12 + 4 * i -> 31 * i <= tlen t ->
      (k <> O -> forall off, r32 t p = Some off -> 31 * i <= off) ->
      fine (read_silf_dir t version ng na boxes nsilf k i p acc).
  Proof.
    intros H20. induction k as [|k IH]; intros i p acc F Hk Hp Hlen Hoff; cbn [read_silf_dir]; [apply dir_stop; [exact F|discriminate]|].
    destruct (r32_some t p W ltac:(lia)) as [offset Eo]. rewrite Eo. specialize (Hoff ltac:(discriminate) offset Eo).
    destruct (r32_some t (p + 4) W ltac:(lia)) as [nx En].
    (* the last entry ends at the end of the table and is followed by no other *)
    assert (Hnext : exists next, (if i =? nsilf - 1 then Some (tlen t) else r32 t (p + 4)) = Some next /\
                                 (k <> O -> r32 t (p + 4) = Some next)).
    { destruct (i =? nsilf - 1) eqn:El; [exists (tlen t); split; [reflexivity|lia]|exists nx; split; [exact En|intros _; exact En]]. }
    destruct Hnext as (next & -> & Hn).
    destruct ((tlen t <? next) || (next <=? offset)) eqn:E1; [apply dir_stop; [exact F|discriminate]|].
    pose proof (read_silf_sub_spec t offset (next - offset) version ng na boxes W ltac:(lia)) as S.
    destruct (read_silf_sub t offset (next - offset) version ng na boxes) as [|c| |pi|h]; try (apply dir_stop; [exact F|discriminate]); [contradiction|].
    assert (H31 : 31 <= next - offset) by apply S.
    apply IH; try lia; [constructor; [exists (next - offset); split; [lia|exact S]|exact F]|].
    intros Hk0 off Eoff. rewrite (Hn Hk0) in Eoff. injection Eoff as <-. lia.
  Qed.

  Theorem read_silf_table_spec : fine (read_silf_table t ng na boxes).
  Proof.
    unfold read_silf_table.
    destruct (tlen t =? 0); [apply (dir_stop []); [constructor|discriminate]|].
    destruct (tlen t <? 20) eqn:E20; [apply (dir_stop []); [constructor|discriminate]|].
    destruct (r32_some t 0 W ltac:(lia)) as [version ->].
    destruct (version <? 0x00020000); [apply (dir_stop []); [constructor|discriminate]|].
    set (p := if 0x00030000 <=? version then 8 else 4).
    assert (Hp : p <= 8) by (unfold p; destruct (0x00030000 <=? version); lia).
    destruct (r16_some t p W ltac:(lia)) as [nsilf ->].
    apply read_silf_dir_spec; try lia. constructor.
  Qed.
End Dir.
