(* Proofs/FeatProofs.v — bit-field allocation of features is disjoint; set/get form an isolated, range-checked map *)
From GR Require Import Base.Bits Model.FeatModel.
From Coq Require Import ZifyBool.
Local Open Scope N_scope.

Definition f_need (f : fref) : N := N.size (f_max f).
Definition f_start (f : fref) : N := f_index f * 32 + f_bits f.            (* absolute bit address *)
Definition field_ok (f : fref) : Prop :=
  f_bits f + f_need f <= 32 /\ f_mask f = N.shiftl (N.ones (f_need f)) (f_bits f).

Lemma ones_lt n : N.ones n < 2 ^ n.
Proof. rewrite N.ones_equiv. apply N.lt_pred_l, N.pow_nonzero. discriminate. Qed.

Lemma size_ones n : N.size (N.ones n) = n.
Proof.
  destruct (N.eq_dec n 0) as [->|Hn]; [reflexivity|].
  assert (H1 : N.ones n <> 0) by (rewrite N.ones_equiv; pose proof (N.pow_gt_1 2 n); lia).
  rewrite N.size_log2, N.ones_equiv, N.log2_pred_pow2 by lia. lia.
Qed.

Lemma size_mono a b : a <= b -> N.size a <= N.size b.
Proof.
  intros H. destruct (N.eq_dec a 0) as [->|Ha]; [cbn; lia|].
  assert (Hb : b <> 0) by lia. rewrite !N.size_log2 by assumption.
  pose proof (N.log2_le_mono a b H). lia.
Qed.

Lemma size_le_32 v : v < W32 -> N.size v <= 32.
Proof. intros H. rewrite <- (size_ones 32). apply size_mono. unfold W32 in H. change (N.ones 32) with 4294967295. lia. Qed.

Lemma shiftl_fits v n b : v < 2 ^ n -> b + n <= 32 -> (N.shiftl v b) mod W32 = N.shiftl v b.
Proof.
  intros Hv Hb. apply N.mod_small. rewrite N.shiftl_mul_pow2. unfold W32.
  assert (Hp : 2 ^ n * 2 ^ b <= 2 ^ 32) by (rewrite <- N.pow_add_r; apply N.pow_le_mono_r; lia).
  nia.
Qed.

Lemma ctor_geometry bo maxv id nm fl st : bo <= MAX_BITS -> maxv < W32 ->
  let '(f, bo') := ctor bo maxv id nm fl st in field_ok f /\ f_max f = maxv /\ bo <= f_start f /\ f_start f + f_need f = bo'.
Proof.
  intros Hbo Hmax. unfold ctor, mask_over_val, need_bits, MAX_BITS, CHUNK in *. rewrite size_ones.
  set (n := N.size maxv). assert (Hn : n <= 32) by (apply size_le_32; exact Hmax).
  set (idx := (bo + n) / 32). set (bo1 := if bo / 32 <? idx then (idx * 32) mod 65536 else bo).
  (* where the field starts: at bo, or at the next word boundary if it would straddle one *)
  assert (H1 : bo1 mod 32 + n <= 32 /\ bo <= bo1 /\ idx * 32 + bo1 mod 32 = bo1 /\ bo1 + n < 65536).
  { subst bo1 idx. clearbody n.
    destruct (_ <? _) eqn:E; [rewrite (N.mod_small ((bo + n) / 32 * 32)) by (zify; Z.to_euclidean_division_equations; lia)|];
      repeat split; zify; Z.to_euclidean_division_equations; lia. }
  clearbody bo1 idx. unfold field_ok, f_need, f_start. cbn [f_mask f_max f_bits f_index]. fold n.
  rewrite (shiftl_fits _ n _ (ones_lt n)), (N.mod_small (bo1 + n)) by lia. repeat split; lia.
Qed.

Lemma testbit_field n b k : N.testbit (N.shiftl (N.ones n) b) k = (b <=? k) && (k <? b + n).
Proof.
  destruct (N.leb_spec b k) as [H|H]; cbn [andb].
  - rewrite N.shiftl_spec_high' by exact H. destruct (N.ltb_spec k (b + n)).
    + apply N.ones_spec_low. lia.
    + apply N.ones_spec_high. lia.
  - apply N.shiftl_spec_low. exact H.
Qed.

Definition put (w m v b : N) : N := N.lor (N.ldiff w m) (N.shiftl v b).

Lemma testbit_put w n b v k : v < 2 ^ n ->
  N.testbit (put w (N.shiftl (N.ones n) b) v b) k = if (b <=? k) && (k <? b + n) then N.testbit v (k - b) else N.testbit w k.
Proof.
  intros Hv. unfold put. rewrite N.lor_spec, N.ldiff_spec, testbit_field.
  destruct (N.leb_spec b k) as [H|H]; cbn [andb negb].
  - rewrite N.shiftl_spec_high' by exact H.
    destruct (N.ltb_spec k (b + n)); cbn [negb]; [rewrite Bool.andb_false_r; reflexivity|].
    rewrite (testbit_small v n) by (exact Hv || lia). rewrite Bool.andb_true_r. apply Bool.orb_false_r.
  - rewrite N.shiftl_spec_low by exact H. rewrite Bool.andb_true_r. apply Bool.orb_false_r.
Qed.

Lemma get_put_same w n b v : v < 2 ^ n ->
  N.shiftr (N.land (put w (N.shiftl (N.ones n) b) v b) (N.shiftl (N.ones n) b)) b = v.
Proof.
  intros Hv. apply N.bits_inj. intros k.
  rewrite N.shiftr_spec', N.land_spec, testbit_put, testbit_field by exact Hv.
  replace (k + b - b) with k by lia. replace (b <=? k + b) with true by lia. cbn [andb].
  destruct (k + b <? b + n) eqn:E; [apply Bool.andb_true_r|].
  rewrite Bool.andb_false_r. symmetry. apply (testbit_small v n); [exact Hv|lia].
Qed.

Lemma land_put_other w n b v n' b' : v < 2 ^ n -> (b + n <= b' \/ b' + n' <= b) ->
  N.land (put w (N.shiftl (N.ones n) b) v b) (N.shiftl (N.ones n') b') = N.land w (N.shiftl (N.ones n') b').
Proof.
  intros Hv Hd. apply N.bits_inj. intros k. rewrite !N.land_spec, testbit_put, testbit_field by exact Hv.
  destruct ((b' <=? k) && (k <? b' + n')) eqn:E; [|rewrite !Bool.andb_false_r; reflexivity].
  replace ((b <=? k) && (k <? b + n)) with false by lia. reflexivity.
Qed.

(* a vector is read as an infinite sequence of words, 0 beyond its end: growing it with zeros changes nothing *)
Definition word_at (fv : fvec) (i : N) : N := nth (N.to_nat i) fv 0.

Lemma length_upd l : forall i f, length (upd l i f) = length l.
Proof. induction l as [|w r IH]; intros [|i] f; cbn; try reflexivity. rewrite IH. reflexivity. Qed.
Lemma nth_upd l : forall i j f, nth j (upd l i f) 0 = if (j =? i)%nat && (i <? length l)%nat then f (nth i l 0) else nth j l 0.
Proof.
  induction l as [|w r IH]; intros [|i] [|j] f; cbn [upd nth length Nat.eqb andb]; try reflexivity.
  - rewrite Bool.andb_false_r. reflexivity.
  - apply IH.
Qed.
Lemma nth_resize l n j : nth j (resize l n) 0 = nth j l 0.
Proof.
  unfold resize. destruct (Nat.lt_ge_cases j (length l)) as [H|H]; [apply app_nth1; exact H|].
  rewrite app_nth2, nth_repeat, nth_overflow by exact H. reflexivity.
Qed.

Lemma get_val_word f fv : get_val f fv = N.shiftr (N.land (word_at fv (f_index f)) (f_mask f)) (f_bits f).
Proof.
  unfold get_val, word_at. destruct (nth_error fv (N.to_nat (f_index f))) eqn:E; [rewrite (nth_error_nth _ _ _ E); reflexivity|].
  rewrite nth_overflow by (apply nth_error_None; exact E). rewrite N.shiftr_0_l. reflexivity.
Qed.

Lemma set_val_words f v fv fv' : set_val f v fv = Some fv' ->
  forall i, word_at fv' i = if i =? f_index f then N.lor (N.ldiff (word_at fv i) (f_mask f)) ((N.shiftl v (f_bits f)) mod W32)
                             else word_at fv i.
Proof.
  unfold set_val. destruct (f_max f <? v); [discriminate|]. intros [= <-] i.
  set (k := N.to_nat (f_index f)).
  set (fv1 := if (length fv <=? k)%nat then resize fv (S k) else fv).
  assert (Hw : forall j, nth j fv1 0 = nth j fv 0) by (intros j; unfold fv1; destruct (length fv <=? k)%nat; [apply nth_resize | reflexivity]).
  assert (Hlen : (k <? length fv1)%nat = true).
  { unfold fv1, resize. destruct (length fv <=? k)%nat eqn:El; [rewrite app_length, repeat_length|]; lia. }
  unfold word_at. rewrite nth_upd, Hlen, !Hw.
  destruct (N.eqb_spec i (f_index f)) as [->|Hne]; [rewrite Nat.eqb_refl; reflexivity|].
  rewrite (proj2 (Nat.eqb_neq _ _)) by (unfold k; lia). reflexivity.
Qed.

Theorem set_succeeds_iff f v fv : (exists fv', set_val f v fv = Some fv') <-> v <= f_max f.
Proof.
  unfold set_val. split.
  - intros [fv' H]. destruct (f_max f <? v) eqn:E; [discriminate|]. lia.
  - intros H. replace (f_max f <? v) with false by lia. eexists; reflexivity.
Qed.

Lemma set_val_range {f v fv fv'} : set_val f v fv = Some fv' -> v < 2 ^ f_need f.
Proof.
  intros H. assert (Hv : v <= f_max f) by (apply (set_succeeds_iff f v fv); eexists; exact H).
  eapply N.le_lt_trans; [exact Hv | apply N.size_gt].
Qed.

Theorem get_set_same f v fv fv' : field_ok f -> set_val f v fv = Some fv' -> get_val f fv' = v.
Proof.
  intros [Hfit Hmask] H. pose proof (set_val_range H) as Hv2.
  rewrite get_val_word, (set_val_words f v fv fv' H), N.eqb_refl.
  rewrite (shiftl_fits v (f_need f)) by assumption. rewrite Hmask.
  apply get_put_same. exact Hv2.
Qed.

Definition disjoint (f g : fref) : Prop :=
  f_index f <> f_index g \/ f_bits f + f_need f <= f_bits g \/ f_bits g + f_need g <= f_bits f.

Theorem get_set_other f g v fv fv' : field_ok f -> field_ok g -> disjoint f g ->
  set_val f v fv = Some fv' -> get_val g fv' = get_val g fv.
Proof.
  intros [Hfit Hmask] [Hfitg Hmaskg] Hd H. pose proof (set_val_range H) as Hv2.
  rewrite !get_val_word, (set_val_words f v fv fv' H).
  destruct (f_index g =? f_index f) eqn:E; [|reflexivity].
  apply N.eqb_eq in E. rewrite (shiftl_fits v (f_need f)) by assumption. rewrite Hmask, Hmaskg.
  f_equal. apply land_put_other; [exact Hv2|].
  destruct Hd as [Hd|Hd]; [congruence|lia].
Qed.

(* a successful write binds the object to the writer's face (and only a successful one does: a refusal returns nothing) *)
Theorem set_on_binds {face f v x x'} : set_val_on face f v x = Some x' ->
  fv_map x' = Some face /\ set_val f v (fv_words x) = Some (fv_words x').
Proof.
  unfold set_val_on. destruct (set_val f v (fv_words x)) as [w|]; [|discriminate]. destruct (fv_map x) as [m|].
  - destruct (N.eqb_spec m face) as [->|]; [|discriminate]. intros [= <-]. split; reflexivity.
  - intros [= <-]. split; reflexivity.
Qed.

(* the bit fields the FeatureRef constructor gives a list of features in turn, from their maximum values: the allocation
   part of read_feat_loop, without the table reads *)
Fixpoint alloc (maxvals : list N) (bo : N) : option (list fref) :=
  match maxvals with
  | [] => Some []
  | m :: rest =>
      let '(f, bo') := ctor bo m 0 0 0 [] in
      if MAX_BITS <? bo' then None else
      match alloc rest bo' with Some l => Some (f :: l) | None => None end
  end.

Lemma geometry_disjoint f g : f_start f + f_need f <= f_start g -> disjoint f g.
Proof.
  intros H. unfold disjoint, f_start in *.
  destruct (N.eq_dec (f_index f) (f_index g)) as [E|E]; [right; left; lia|left; exact E].
Qed.

Lemma disjoint_sym f g : disjoint f g -> disjoint g f.
Proof. intros [H|[H|H]]; [left; congruence|right; right; exact H|right; left; exact H]. Qed.

Lemma alloc_spec maxvals : forall bo l, bo <= MAX_BITS -> Forall (fun m => m < W32) maxvals -> alloc maxvals bo = Some l ->
  Forall field_ok l /\ Forall (fun f => bo <= f_start f) l /\ map f_max l = maxvals /\
  ForallOrdPairs disjoint l.
Proof.
  induction maxvals as [|m rest IH]; intros bo l Hbo Hm H; cbn [alloc] in H.
  - inversion H; subst. repeat split; constructor.
  - inversion Hm as [|? ? Hm1 Hm2]; subst.
    pose proof (ctor_geometry bo m 0 0 0 [] Hbo Hm1) as G. destruct (ctor bo m 0 0 0 []) as [f bo'].
    destruct G as (Hok & Hfm & Hst & Hend).
    destruct (MAX_BITS <? bo') eqn:El; [discriminate|].
    destruct (alloc rest bo') as [l'|] eqn:Ea; [|discriminate]. inversion H; subst l; clear H.
    destruct (IH bo' l' ltac:(lia) Hm2 Ea) as (A & B & C & D).
    split; [constructor; assumption|]. split.
    { constructor; [exact Hst|]. eapply Forall_impl; [|exact B]. cbv beta. lia. }
    split; [cbn [map]; rewrite Hfm, C; reflexivity|].
    constructor; [|exact D].
    eapply Forall_impl; [|exact B]. cbv beta. intros g Hg. apply geometry_disjoint. lia.
Qed.

Lemma find_skip {A} (f : A -> bool) l1 l2 : Forall (fun x => f x = false) l1 -> find f (l1 ++ l2) = find f l2.
Proof. induction 1 as [|x l Hx _ IH]; cbn [app find]; [reflexivity | rewrite Hx; exact IH]. Qed.
