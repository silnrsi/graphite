(* Proofs/CmapWhole.v — CachedCmap against DirectCmap as a whole: for a face whose BMP subtable (format 4) and, when present,
   supplementary subtable (format 12) were accepted by the checks and are well formed, building the cache succeeds and the cached
   lookup returns on EVERY code point what the direct lookup returns. *)
From GR Require Import Model.CmapModel Proofs.Cmap12Agree Proofs.Cmap4Agree.
From Coq Require Import FMapPositive.
Local Open Scope N_scope.

Definition smp_ok (t : mem) (smp : option N) : Prop :=
  match smp with Some os => check12 t (Some os) = Some true /\ wf12 t os | None => True end.

Theorem cached_eq_direct t ob smp : mem_wf t -> tlen t < S64 -> check4 t (Some ob) = Some true -> wf4 t ob -> smp_ok t smp ->
  exists cc, cached_build t (Some ob) smp = Some (Some cc) /\
             forall c, c <= 0x10FFFF -> direct t (Some ob) smp c = Some (cached cc (match smp with Some _ => false | None => true end) c).
Proof.
  intros W Hsz Hc4 Hw4 Hs.
  destruct (cached4_eq_direct_checked t ob W Hsz Hc4 Hw4) as (mb & Eb & Hb).
  destruct smp as [os|].
  - destruct Hs as [Hc12 Hw12]. destruct (cached12_eq_direct_checked t os W Hsz Hc12 Hw12) as (ms & Es & Hms).
    exists {| cc_smp := ms; cc_bmp := Some mb |}. split.
    + unfold cached_build. rewrite Es. rewrite Eb. reflexivity.
    + intros c Hc. unfold direct, cached.
      assert (E0 : (0x10FFFF <? c) = false) by lia. rewrite E0.
      destruct (0xFFFF <? c) eqn:E1.
      * assert (E2 : (c <=? 0xFFFF) = false) by lia. rewrite E2. apply Hms. exact Hc.
      * assert (E2 : (c <=? 0xFFFF) = true) by lia. rewrite E2. apply Hb. lia.
  - exists {| cc_smp := PositiveMap.empty N; cc_bmp := Some mb |}. split.
    + unfold cached_build. rewrite Eb. reflexivity.
    + intros c Hc. unfold direct, cached.
      destruct (0xFFFF <? c) eqn:E1; cbn [orb]; [reflexivity|].
      assert (E0 : (0x10FFFF <? c) = false) by lia. rewrite E0.
      assert (E2 : (c <=? 0xFFFF) = true) by lia. rewrite E2. apply Hb. lia.
Qed.
