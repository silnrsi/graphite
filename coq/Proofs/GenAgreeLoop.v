From Coq Require Import List Lia ZifyBool NArith.
Import ListNotations.
Local Open Scope N_scope.
(* the machine's map cursor: it starts at entry 1 + context of m_slot_map (entry 0 is the slot before the map), INSERT may step it back
   to entry 0, NEXT steps it forward unless it already stands past the last of the [size] entries — `if (map - &smap[0] >= size) DIE`,
   with &smap[0] = &m_slot_map[1].  So it never leaves entries 0 .. size + 1, and with at most MAX_SLOTS entries in the map the array
   needs MAX_SLOTS + 2 (with MAX_SLOTS + 1 the end-of-action store `*map = is` wrote one past the array on a full map: F29).
   C02_map_cursor_in_bounds sets this bound beside the extent of the array as regenerated from the source (Gen/GenLoop.v). *)
Inductive cur_op := CNext | CInsert.
Definition cur_step (size : N) (i : N) (o : cur_op) : option N :=
  match o with
  | CNext => if size <=? i - 1 then (if i =? 0 then Some 1 else None) else Some (i + 1)      (* i = 0: map - &smap[0] = -1 < size *)
  | CInsert => Some (if i =? 0 then 0 else i - 1)
  end.
Fixpoint cur_run (size i : N) (os : list cur_op) : option N :=
  match os with [] => Some i | o :: r => match cur_step size i o with Some j => cur_run size j r | None => None end end.
Lemma cur_step_bound [size i o j] : i <= size + 1 -> cur_step size i o = Some j -> j <= size + 1.
Proof.
  intros Hi. destruct o; cbn [cur_step].
  - destruct (size <=? i - 1) eqn:E.
    + destruct (i =? 0) eqn:E0; [|discriminate]. intros [= <-]. lia.
    + intros [= <-]. lia.
  - intros [= <-]. destruct (i =? 0); lia.
Qed.
