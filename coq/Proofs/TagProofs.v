(* Proofs/TagProofs.v — gr_str_to_tag and gr_tag_to_str on the four bytes of a tag (inverse of each other on strings of at most
   four characters); zeropad read byte by byte, so that the space-padded and the zero-padded spelling of a short tag agree. *)
From GR Require Import Base.Bytes Base.Bits Model.TagModel.
Local Open Scope N_scope.

Definition nonzero_bytes (s : bytes) : Prop := Forall (fun b => 0 < b < 256) s.

Lemma nonzero_bytes_cons b s : nonzero_bytes (b :: s) <-> 0 < b < 256 /\ nonzero_bytes s.
Proof. apply Forall_cons_iff. Qed.
Lemma all_bytes_cons b s : all_bytes (b :: s) <-> b < 256 /\ all_bytes s.
Proof. apply Forall_cons_iff. Qed.

Lemma strlen_from_app s rest acc : nonzero_bytes s ->
  strlen_from (s ++ 0 :: rest) acc = Some (acc + length s)%nat.
Proof.
  revert acc. induction s as [|b s IH]; intros acc Hs; cbn [app strlen_from length].
  - rewrite N.eqb_refl. f_equal. lia.
  - apply nonzero_bytes_cons in Hs as [Hb Hs']. destruct (N.eqb_spec b 0); [lia|].
    rewrite IH by exact Hs'. f_equal. lia.
Qed.

Lemma strlen_app s rest : nonzero_bytes s -> strlen (s ++ 0 :: rest) = Some (length s).
Proof. intros H. unfold strlen. rewrite strlen_from_app by exact H. reflexivity. Qed.

Lemma lor_chain b3 b2 b1 b0 : b3 < 256 -> b2 < 256 -> b1 < 256 ->
  N.lor (N.lor (N.lor b3 (N.shiftl b2 8)) (N.shiftl b1 16)) (N.shiftl b0 24) = be32 b0 b1 b2 b3.
Proof.
  intros H3 H2 H1. unfold be32.
  rewrite (lor_shiftl_add b3 b2 8), (lor_shiftl_add _ b1 16), (lor_shiftl_add _ b0 24);
    change (2 ^ 8) with 256; change (2 ^ 16) with 65536; change (2 ^ 24) with 16777216; lia.
Qed.

(* the tag of a C string: big-endian value of its first min(4,len) characters, zero padded *)
Definition tag_spec (s : bytes) : N := be32_of (pad_to4 0 (firstn 4 s)).

Lemma str_to_tag_correct s rest : nonzero_bytes s ->
  str_to_tag (s ++ 0 :: rest) = Some (tag_spec s).
Proof.
  intros Hs. unfold str_to_tag. rewrite strlen_app by exact Hs.
  destruct s as [|c0 [|c1 [|c2 [|c3 s']]]]; rewrite ?nonzero_bytes_cons in Hs;
    cbn -[N.lor N.shiftl be32]; rewrite lor_chain by lia; reflexivity.
Qed.

Lemma tag_to_str_bytes t :
  tag_to_str t = [ (0%nat, byte3 t); (1%nat, byte2 t); (2%nat, byte1 t); (3%nat, byte0 t) ].
Proof.
  unfold tag_to_str, byte3, byte2, byte1, byte0.
  change 255 with (N.ones 8). rewrite !N.land_ones, !N.shiftr_div_pow2. reflexivity.
Qed.

Lemma tag_to_str_offsets t : map fst (tag_to_str t) = [0; 1; 2; 3]%nat.
Proof. reflexivity. Qed.

Lemma be32_bytes a b c d : a < 256 -> b < 256 -> c < 256 -> d < 256 ->
  byte3 (be32 a b c d) = a /\ byte2 (be32 a b c d) = b /\ byte1 (be32 a b c d) = c /\ byte0 (be32 a b c d) = d.
Proof. unfold byte3, byte2, byte1, byte0, be32. repeat split; zify; Z.to_euclidean_division_equations; lia. Qed.

Lemma bytes_be32 t : t < 2 ^ 32 -> be32 (byte3 t) (byte2 t) (byte1 t) (byte0 t) = t.
Proof.
  intros H. unfold be32, byte3, byte2, byte1, byte0.
  rewrite <- (N.mod_small t (2 ^ 32) H) at 5.    (* the right-hand side, which then splits into its base-256 digits *)
  change (2 ^ 32) with (16777216 * 256). rewrite N.mod_mul_r by discriminate.
  change (t mod 16777216) with (t mod (65536 * 256)). rewrite N.mod_mul_r by discriminate.
  change (t mod 65536) with (t mod (256 * 256)). rewrite N.mod_mul_r by discriminate. ring.
Qed.

Lemma tag_to_str_be32 a b c d x0 x1 x2 x3 rest : a < 256 -> b < 256 -> c < 256 -> d < 256 ->
  apply_writes (x0 :: x1 :: x2 :: x3 :: rest) (tag_to_str (be32 a b c d)) = Some (a :: b :: c :: d :: rest).
Proof.
  intros Ha Hb Hc Hd. rewrite tag_to_str_bytes.
  destruct (be32_bytes a b c d Ha Hb Hc Hd) as (-> & -> & -> & ->). reflexivity.
Qed.

Lemma inverse_tag s : nonzero_bytes s -> (length s <= 4)%nat ->
  let t := be32_of (pad_to4 0 s) in
  exists out, apply_writes [0; 0; 0; 0] (tag_to_str t) = Some out /\ str_to_tag (out ++ [0]) = Some t.
Proof.
  intros Hs Hl t. exists (pad_to4 0 s). split.
  - destruct s as [|c0 [|c1 [|c2 [|c3 [|? ?]]]]]; cbn [length] in Hl; try lia;
      rewrite ?nonzero_bytes_cons in Hs; unfold be32_of, pad_to4, nth0; cbn [length Nat.sub repeat app nth];
      apply tag_to_str_be32; lia.
  - unfold pad_to4. rewrite <- app_assoc, <- repeat_cons, str_to_tag_correct by exact Hs.
    unfold tag_spec, pad_to4. rewrite firstn_all2 by lia. reflexivity.
Qed.

Definition zeropad_spec (a b c d : N) : N :=
  if (a =? 32) && (b =? 32) && (c =? 32) && (d =? 32) then 0
  else if (b =? 32) && (c =? 32) && (d =? 32) then be32 a 0 0 0
  else if (c =? 32) && (d =? 32) then be32 a b 0 0
  else if (d =? 32) then be32 a b c 0
  else be32 a b c d.

Lemma be32_eqb a b c d a' b' c' d' :
  a < 256 -> b < 256 -> c < 256 -> d < 256 -> a' < 256 -> b' < 256 -> c' < 256 -> d' < 256 ->
  (be32 a b c d =? be32 a' b' c' d') = (a =? a') && (b =? b') && (c =? c') && (d =? d').
Proof. intros. apply Bool.eq_true_iff_eq. rewrite !Bool.andb_true_iff, !N.eqb_eq. unfold be32. lia. Qed.

Lemma be32_lt a b c d : a < 256 -> b < 256 -> c < 256 -> d < 256 -> be32 a b c d < 2 ^ 32.
Proof. unfold be32. lia. Qed.

Lemma be32_split a b c d : a < 256 -> b < 256 -> c < 256 -> d < 256 ->
  be32 a b c d mod 2 ^ 24 = be32 0 b c d /\ be32 a b c d / 2 ^ 24 * 2 ^ 24 = be32 a 0 0 0 /\
  be32 a b c d mod 2 ^ 16 = be32 0 0 c d /\ be32 a b c d / 2 ^ 16 * 2 ^ 16 = be32 a b 0 0 /\
  be32 a b c d mod 2 ^ 8 = be32 0 0 0 d /\ be32 a b c d / 2 ^ 8 * 2 ^ 8 = be32 a b c 0.
Proof.
  unfold be32. repeat split; zify; Z.to_euclidean_division_equations; lia.
Qed.

(* the six masks of zeropad cut the word at a byte boundary (be32_split); the comparisons with spaces are then byte by byte (be32_eqb) *)
Lemma zeropad_bytes a b c d : a < 256 -> b < 256 -> c < 256 -> d < 256 ->
  zeropad (be32 a b c d) = zeropad_spec a b c d.
Proof.
  intros Ha Hb Hc Hd. unfold zeropad, zeropad_spec.
  change 0x00FFFFFF with (N.ones 24). change 0x0000FFFF with (N.ones 16). change 0x000000FF with (N.ones 8).
  change 0xFF000000 with (N.shiftl (N.ones (32 - 24)) 24). change 0xFFFF0000 with (N.shiftl (N.ones (32 - 16)) 16).
  change 0xFFFFFF00 with (N.shiftl (N.ones (32 - 8)) 8).
  rewrite !N.land_ones, !land_himask_w by (try apply be32_lt; assumption || lia).
  destruct (be32_split a b c d Ha Hb Hc Hd) as (-> & -> & -> & -> & -> & ->).
  change 0x20202020 with (be32 32 32 32 32). change 0x00202020 with (be32 0 32 32 32).
  change 0x00002020 with (be32 0 0 32 32).
  rewrite !be32_eqb by (assumption || reflexivity). reflexivity.
Qed.

Lemma padding_agree s : all_bytes s -> (length s <= 4)%nat -> last s 0 <> 32 ->
  zeropad (be32_of (pad_to4 32 s)) = zeropad (be32_of (pad_to4 0 s)).
Proof.
  intros Hb Hl Hlast.
  destruct s as [|c0 [|c1 [|c2 [|c3 [|? ?]]]]]; cbn [length] in Hl; try lia;
    rewrite ?all_bytes_cons in Hb; cbn [last] in Hlast; apply N.eqb_neq in Hlast;
    unfold be32_of, pad_to4, nth0; cbn [length Nat.sub repeat app nth];
    rewrite !zeropad_bytes by lia; unfold zeropad_spec;
    (* the last byte of s is not a space, so both sides strip exactly the padding, whatever the bytes before it *)
    rewrite ?Hlast; repeat match goal with |- context [?x =? 32] => is_var x; destruct (x =? 32) end; reflexivity.
Qed.
