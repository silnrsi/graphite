(* Proofs/LineProofs.v — the lines of a segment as lists: breaking a line and setting the first/last bracket of justification leave
   their concatenation as it was; after a reversal that meets its precondition every line is a permutation of what it was. *)
From GR Require Import Base.Bytes Model.StreamModel Model.LineModel Proofs.StreamProofs.
From Coq Require Import Permutation.

Lemma split_at_concat {p l a b} : split_at p l = Some (a, b) -> l = a ++ b.
Proof.
  revert a b. induction l as [|x r IH]; intros a b H; cbn [split_at] in H; [discriminate|].
  destruct (x =? p)%N; [inversion H; reflexivity|].
  destruct (split_at p r) as [[a' b']|]; [|discriminate]. inversion H; subst. cbn [app]. f_equal. apply IH. reflexivity.
Qed.

Lemma break_lines_concat {p ls ls'} : break_lines p ls = Some ls' -> concat ls' = concat ls.
Proof.
  revert ls'. induction ls as [|l rest IH]; intros ls' H; cbn [break_lines] in H; [discriminate|].
  destruct (split_at p l) as [[a b]|] eqn:E.
  - destruct a as [|x a']; [discriminate|]. inversion H; subst. cbn [concat]. rewrite (split_at_concat E). rewrite app_assoc. reflexivity.
  - destruct (break_lines p rest) as [r|]; [|discriminate]. inversion H; subst. cbn [concat]. f_equal. apply IH. reflexivity.
Qed.

Definition no_reverse (o : lop) : Prop := match o with LReverse _ => False | _ => True end.

Theorem lrun_no_reverse ops : forall s s', Forall no_reverse ops -> lrun s ops = LOk s' -> concat (l_lines s') = concat (l_lines s).
Proof.
  induction ops as [|o r IH]; intros s s' Hn H; cbn [lrun] in H; [inversion H; reflexivity|].
  inversion Hn as [|? ? Ho Hr]; subst.
  destruct (lapply s o) as [s1|e] eqn:E; [|discriminate].
  rewrite (IH s1 s' Hr H). destruct o; cbn [lapply] in E; cbn in Ho.
  - destruct (break_lines p (l_lines s)) as [ls|] eqn:Eb; [|discriminate]. inversion E; subst. apply (break_lines_concat Eb).
  - destruct Ho.
  - inversion E; reflexivity.
Qed.

Lemma Forall2_perm_refl (ls : list (list sid)) : Forall2 (@Permutation sid) ls ls.
Proof. induction ls; constructor; [reflexivity|assumption]. Qed.

(* [Some (Some _)]: the recorded last is the end of the chain headed by first *)
Lemma reverse_chain_perm {f lst marks ls ls' l'} : reverse_chain f lst marks ls = Some (Some (ls', l')) ->
  Forall2 (@Permutation sid) ls' ls.
Proof.
  revert ls' l'. induction ls as [|l rest IH]; intros ls' l' H; cbn [reverse_chain] in H; [discriminate|].
  destruct (head_is f l).
  - destruct (negb (last_is lst l)); [discriminate|].
    destruct (negb (Nat.eqb (length marks) (length l))) eqn:El; [discriminate|].
    apply Bool.negb_false_iff, Nat.eqb_eq in El. inversion H; subst. constructor.
    + destruct l as [|x [|y r]]; try reflexivity. apply rev_keep_marks_perm. exact El.
    + apply Forall2_perm_refl.
  - destruct (reverse_chain f lst marks rest) as [[[r l'']|]|] eqn:E; try discriminate.
    inversion H; subst. constructor; [reflexivity|]. eapply IH. reflexivity.
Qed.
