(* Proofs/DecompProofs.v — what the outcomes TOk and TTrap of Face::Table::decompress (Model/DecompModel.v) mean
   ([table_decompress_spec]): it keeps every read and write inside the block it allocated, whatever the table announces, and
   Properties_C14.v reads off what replaces the table (the refusals are read off the model there). *)
From GR Require Import Base.Bytes Model.Lz4Model Proofs.Lz4Safe Proofs.Lz4Sound Model.DecompModel.

Lemma table_decompress_spec t heap : match table_decompress t heap with
  | TOk out => scheme t = 1%N /\ 4 <= announced t /\ be32l out 0 = be32l t 0 /\
               exists out0, length out0 = length heap /\ decompress (skipn 8 t) (announced t) out0 = Ok (announced t) out
  | TTrap => length heap <> announced t
  | _ => True end.
Proof.
  unfold table_decompress. destruct (length t <? 20); [exact I|]. destruct (scheme t =? 0)%N; [exact I|].
  destruct (N.eqb_spec (scheme t) 1) as [E1|]; cbn [negb]; [|exact I]. destruct (Nat.ltb_spec (announced t) 4) as [|E4]; [exact I|].
  pose proof (write_at_spec heap 0 [0; 0; 0; 0]%N) as Hw. destruct (write_at heap 0 _) as [out0|]; [|cbn [length] in Hw; lia].
  destruct Hw as (L0 & _). pose proof (decompress_outcome (skipn 8 t) (announced t) out0) as Ho.
  destruct (decompress (skipn 8 t) (announced t) out0) as [| | |n o] eqn:Ed; [lia|destruct Ho|exact I|].
  destruct (Nat.eqb_spec n (announced t)) as [->|]; cbn [negb]; [|exact I]. destruct (N.eqb_spec (be32l o 0) (be32l t 0)) as [Ev|]; [|exact I].
  repeat split; try assumption. exists out0. split; assumption.
Qed.

(* for ANY table bytes and ANY content of the fresh block of the announced size: no read or write leaves a buffer *)
Theorem table_decompress_safe t heap : length heap = announced t -> table_decompress t heap <> TTrap.
Proof. intros Hh E. pose proof (table_decompress_spec t heap) as H. rewrite E in H. exact (H Hh). Qed.
