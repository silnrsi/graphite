(* Proofs/ClassMapProofs.v — Silf::readClassMap never reads outside the data_len bytes it is given, whatever they hold. *)
From GR Require Import Base.Mem Base.MemFacts Model.ClassMapModel.
From Coq Require Import ZifyN ZifyBool.
Local Open Scope N_scope.

Lemma rdT_some (wide : bool) t i : mem_wf t -> i + (if wide then 4 else 2) <= tlen t -> exists v, rdT wide t i = Some v.
Proof. intros W H. destruct wide; [apply r32_some|apply r16_some]; assumption. Qed.

Lemma read_offs_safe (wide : bool) t cls_off max_off : mem_wf t -> forall k p acc, p + (if wide then 4 else 2) * N.of_nat k <= tlen t ->
  read_offs k wide t p cls_off max_off acc <> None.
Proof.
  intros W. induction k as [|k IH]; intros p acc H; cbn [read_offs]; [discriminate|].
  destruct (rdT_some wide t p W ltac:(destruct wide; lia)) as [raw ->].
  destruct (max_off <? _); [discriminate|]. apply IH. destruct wide; lia.
Qed.
Lemma read_words_safe t : mem_wf t -> forall k p acc, p + 2 * N.of_nat k <= tlen t -> read_words k t p acc <> None.
Proof.
  intros W. induction k as [|k IH]; intros p acc H; cbn [read_words]; [discriminate|].
  destruct (r16_some t p W ltac:(lia)) as [v ->]. apply IH. lia.
Qed.

Theorem read_class_map_safe t start dlen version : mem_wf t -> start + dlen <= tlen t -> read_class_map t start dlen version <> CTrap.
Proof.
  intros W Hin. unfold read_class_map. destruct (dlen <? 4) eqn:E0; [discriminate|].
  destruct (r16_some t start W ltac:(lia)) as [ncls ->]. destruct (r16_some t (start + 2) W ltac:(lia)) as [nlin ->].
  set (wide := 0x40000 <=? version).
  destruct ((ncls <? nlin) || (dlen - 4 <? (ncls + 1) * (if wide then 4 else 2))) eqn:E1; [discriminate|].
  destruct (rdT_some wide t (start + 4) W ltac:(destruct wide; lia)) as [first ->].
  destruct (rdT_some wide t (start + 4 + (if wide then 4 else 2) * ncls) W ltac:(destruct wide; lia)) as [lst ->].
  set (cls_off := 4 + (if wide then 4 else 2) * (ncls + 1)). set (max_off := sub32 lst cls_off / 2).
  destruct (negb (first =? cls_off) || ((dlen - cls_off) / 2 <? max_off)) eqn:E3; [discriminate|].
  pose proof (read_offs_safe wide t cls_off max_off W (S (N.to_nat ncls)) (start + 4) [] ltac:(destruct wide; lia)) as Ho.
  destruct (read_offs (S (N.to_nat ncls)) wide t (start + 4) cls_off max_off []) as [[offs|]|]; [|discriminate|contradiction].
  destruct (max_off <? _); [discriminate|]. destruct (negb (monotone _)); [discriminate|].
  pose proof (read_words_safe t W (N.to_nat max_off) (start + cls_off) [] ltac:(destruct wide; lia)) as Hw.
  destruct (read_words (N.to_nat max_off) t (start + cls_off) []) as [data|]; [|contradiction].
  destruct (lookups_ok _ _ _); discriminate.
Qed.
