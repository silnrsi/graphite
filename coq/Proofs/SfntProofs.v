(* Proofs/SfntProofs.v — the checked file read hands out only what is inside the file ([fread_inside]); the file-face theorems are
   proved from it under C01_file_table_inside and C01_open_file_inside. *)
From GR Require Import Base.Bytes Model.SfntModel.
Local Open Scope N_scope.

Lemma fread_inside {f o k l} : fread f o k = Some l -> o + k <= flen f /\ length l = N.to_nat k /\ l = firstn (N.to_nat k) (skipn (N.to_nat o) f).
Proof.
  unfold fread. destruct (N.leb_spec (o + k) (flen f)) as [H|H]; [|discriminate]. intros E. injection E as <-.
  split; [exact H|]. split; [|reflexivity]. rewrite firstn_length, skipn_length. unfold flen in H. lia.
Qed.

Lemma find_entry_reads_inside d : forall k i tag r, find_entry d k i tag = Some r -> exists j, (i <= j < i + k)%nat /\ be32 d (16 * j) = tag /\ r = (be32 d (16 * j + 8), be32 d (16 * j + 12)).
Proof.
  induction k as [|k IH]; intros i tag r H; cbn [find_entry] in H; [discriminate|].
  destruct (N.eqb_spec (be32 d (16 * i)) tag) as [E|E].
  - injection H as <-. exists i. repeat split; [lia | lia | exact E].
  - destruct (IH _ _ _ H) as [j [Hj [H1 H2]]]. exists j. repeat split; [lia | lia | exact H1 | exact H2].
Qed.

Theorem table_info_entry_inside ff tag off len : length (ff_dir ff) = N.to_nat (ff_ntables ff * 16) -> table_info ff tag = Some (off, len) ->
  exists j, (16 * j + 16 <= length (ff_dir ff))%nat /\ ff_ntables ff <= 40.
Proof.
  unfold table_info, MAX_TABLES. intros Hl. destruct (N.ltb_spec 40 (ff_ntables ff)) as [|Hn]; [discriminate|]. intros H.
  destruct (find_entry_reads_inside _ _ _ _ _ H) as [j [Hj _]]. exists j. split; [lia | exact Hn].
Qed.
