(* Proofs/Lz4Safe.v — what each step of the LZ4 decoder model does: one lemma per primitive (checked reads and writes, the three
   copies, the length extension, the sequence header, the stages of the loop body) in outcome form: what Some means, in the terms
   of the reference decoder and whatever the size of the output array, and what None means: which buffer was too short.
   Proofs/Lz4Sound.v and Proofs/Lz4Complete.v rest on these. *)
From GR Require Import Base.Bytes Model.Lz4Model.
From Coq Require Import ZifyN ZifyBool ZifyNat.
Local Open Scope nat_scope.

Lemma words_align n : 0 < n -> words n * WS = align n.
Proof. unfold words, align, WS. lia. Qed.
Lemma align_bound n : n <= align n <= n + 7.
Proof. unfold align, WS. lia. Qed.
Lemma words_bound n : words n * WS <= Nat.max 8 (n + 7).
Proof. unfold words, WS. lia. Qed.
Lemma u32_minus orem k : k <= orem ->
  (u32_of_size_minus orem k <= N.of_nat (orem - k))%N /\ ((N.of_nat orem < U32)%N -> u32_of_size_minus orem k = N.of_nat (orem - k)).
Proof. unfold u32_of_size_minus, U32. lia. Qed.

(* the saturating sums of the decoder: the unbounded sum [m] of the reference, capped at the largest 32-bit value *)
Definition cap (m : nat) : N := N.min (N.of_nat m) (U32 - 1).
Lemma cap_exact l m : l = cap m \/ l = N.of_nat m -> (l < U32 - 1)%N \/ (N.of_nat m < U32)%N -> N.to_nat l = m.
Proof. unfold cap, U32. lia. Qed.
Lemma match_len ml0 m0 : ml0 = cap m0 \/ ml0 = N.of_nat m0 -> (ml0 < U32)%N ->
  let ml := ((ml0 + N.of_nat MINMATCH) mod U32)%N in
  ((N.of_nat MINMATCH <= ml)%N -> N.to_nat ml = m0 + MINMATCH) /\ ((N.of_nat (m0 + MINMATCH) < U32)%N -> ml = N.of_nat (m0 + MINMATCH)).
Proof. unfold cap, MINMATCH, U32. lia. Qed.

Lemma skipn_nth_error {A} k : forall (l : list A) b, nth_error l k = Some b -> skipn k l = b :: skipn (S k) l.
Proof. induction k as [|k IH]; intros [|x l] b H; try discriminate; [injection H as ->; reflexivity|]. exact (IH l b H). Qed.
Lemma firstn_add {A} a : forall (l : list A) b, firstn (a + b) l = firstn a l ++ firstn b (skipn a l).
Proof. induction a as [|a IH]; intros l b; [reflexivity|]. destruct l; [rewrite !firstn_nil; reflexivity|]. cbn [Nat.add firstn skipn app]. f_equal. apply IH. Qed.
Lemma firstn_app_at {A} (l1 l2 : list A) d n : length l1 = d -> firstn (d + n) (l1 ++ l2) = l1 ++ firstn n l2.
Proof. intros <-. apply firstn_app_2. Qed.
Lemma firstn_app_exact {A} (l1 l2 : list A) n : n = length l1 -> firstn n (l1 ++ l2) = l1.
Proof. intros ->. rewrite <- (Nat.add_0_r (length l1)), firstn_app_2. apply app_nil_r. Qed.

Lemma read_at_spec buf i n : match read_at buf i n with
  | Some w => w = firstn n (skipn i buf) /\ length w = n /\ i + n <= length buf
  | None => length buf < i + n end.
Proof.
  unfold read_at. destruct (Nat.leb_spec (i + n) (length buf)) as [H|H]; [|exact H].
  rewrite firstn_length, skipn_length. repeat split; lia.
Qed.
Lemma write_at_spec buf i bs : match write_at buf i bs with
  | Some out => length out = length buf /\ firstn (i + length bs) out = firstn i buf ++ bs /\ i + length bs <= length buf
  | None => length buf < i + length bs end.
Proof.
  unfold write_at. destruct (Nat.leb_spec (i + length bs) (length buf)) as [H|H]; [|exact H]. split; [|split; [|exact H]].
  - rewrite !app_length, firstn_length, skipn_length. lia.
  - rewrite app_assoc. apply firstn_app_exact. rewrite app_length, firstn_length. lia.
Qed.

Lemma ref_match_app a : forall b dist o, ref_match (a + b) dist o = match ref_match a dist o with Some o1 => ref_match b dist o1 | None => None end.
Proof.
  induction a as [|a IH]; intros b dist o; [reflexivity|]. cbn [Nat.add ref_match].
  destruct (nth_error o (dist - 1)); [apply IH|reflexivity].
Qed.
Lemma ref_match_grows n : forall dist o o', ref_match n dist o = Some o' -> exists new, o' = new ++ o /\ length new = n.
Proof.
  induction n as [|n IH]; intros dist o o' H; cbn [ref_match] in H.
  - injection H as <-. exists []. split; reflexivity.
  - destruct (nth_error o (dist - 1)) as [b|]; [|discriminate]. destruct (IH _ _ _ H) as (new & -> & Hl).
    exists (new ++ [b]). rewrite <- app_assoc. split; [reflexivity|]. rewrite app_length. cbn [length]. lia.
Qed.
Arguments ref_match_grows {n dist o o'}.

Lemma ref_match_far n : forall dist o, n <= dist <= length o -> ref_match n dist o = Some (firstn n (skipn (dist - n) o) ++ o).
Proof.
  (* by the LAST byte of the match: the block then grows at its head, where a list grows *)
  induction n as [|n IH]; intros dist o H; [reflexivity|].
  replace (S n) with (n + 1) at 1 by lia. rewrite ref_match_app, IH by lia. cbn [ref_match].
  rewrite nth_error_app2, firstn_length, Nat.min_l by (rewrite ?firstn_length, ?skipn_length; lia).
  destruct (nth_error o (dist - 1 - n)) as [b|] eqn:E; [|apply nth_error_None in E; lia].
  replace (dist - 1 - n) with (dist - S n) in E by lia.
  rewrite (skipn_nth_error _ _ _ E). replace (S (dist - S n)) with (dist - n) by lia. reflexivity.
Qed.

(* what the reference holds when the decoder has produced the first [d] bytes of [out]: its output so far, reversed *)
Definition abs (out : list N) (d : nat) : list N := rev (firstn d out).

Lemma abs_app {out out' d n w} : firstn (d + n) out' = firstn d out ++ w -> abs out' (d + n) = rev w ++ abs out d.
Proof. intros H. unfold abs. rewrite H. apply rev_app_distr. Qed.

Lemma abs_length out d : d <= length out -> length (abs out d) = d.
Proof. intros H. unfold abs. rewrite rev_length. apply firstn_length_le, H. Qed.
Lemma skipn_abs k out d : d <= length out -> skipn k (abs out d) = abs out (d - k).
Proof. intros H. unfold abs. rewrite skipn_rev, firstn_length, firstn_firstn, !Nat.min_l by lia. reflexivity. Qed.
Lemma firstn_abs n out d : n <= d <= length out -> firstn n (abs out d) = rev (firstn n (skipn (d - n) out)).
Proof. intros H. unfold abs. rewrite firstn_rev, firstn_length, Nat.min_l, skipn_firstn_comm by lia. do 2 f_equal. lia. Qed.

Lemma ref_match_block n dist out d : n <= dist <= d -> d <= length out ->
  ref_match n dist (abs out d) = Some (rev (firstn n (skipn (d - dist) out)) ++ abs out d).
Proof.
  intros Hn Hd. rewrite ref_match_far, skipn_abs, firstn_abs by (rewrite ?abs_length; lia).
  replace (d - (dist - n) - n) with (d - dist) by lia. reflexivity.
Qed.

(* a word-wise copy runs past the end of the match: what it has written up to that end is the match *)
Lemma ref_match_prefix {m e dist out d out2} : d + (m + e) <= length out2 ->
  ref_match (m + e) dist (abs out d) = Some (abs out2 (d + (m + e))) -> ref_match m dist (abs out d) = Some (abs out2 (d + m)).
Proof.
  intros Hb. rewrite ref_match_app. destruct (ref_match m dist (abs out d)) as [o1|]; [|discriminate]. intros H2. f_equal.
  destruct (ref_match_grows H2) as (new & E & L). apply (f_equal (skipn e)) in E.
  rewrite skipn_abs, skipn_app, L, Nat.sub_diag, skipn_all2 in E by lia. cbn [app skipn] in E. rewrite <- E. f_equal. lia.
Qed.

Lemma overrun_in_spec k : forall out d s, match overrun_in k out d s with
  | Some out' => length out' = length out /\ firstn (d + k * WS) out' = firstn d out ++ firstn (k * WS) s /\ (k * WS = 0 \/ d + k * WS <= length out)
  | None => length out < d + k * WS \/ length s < k * WS end.
Proof.
  induction k as [|k IH]; intros out d s; cbn [overrun_in].
  - cbn [Nat.mul firstn]. rewrite Nat.add_0_r, app_nil_r. auto.
  - pose proof (read_at_spec s 0 WS) as Hr. destruct (read_at s 0 WS) as [w|]; cbn [bind]; [|right; lia].
    destruct Hr as (Ew & Lw & Bw). cbn [skipn] in Ew.
    pose proof (write_at_spec out d w) as Hw. rewrite Lw in Hw. destruct (write_at out d w) as [o1|]; cbn [bind]; [|left; lia].
    destruct Hw as (L1 & P1 & B1). specialize (IH o1 (d + WS) (skipn WS s)). rewrite skipn_length in IH.
    destruct (overrun_in k o1 (d + WS) (skipn WS s)) as [out'|]; [|lia]. destruct IH as (L2 & P2 & B2). split; [lia|]. split; [|lia].
    replace (d + S k * WS) with (d + WS + k * WS) by lia. replace (S k * WS) with (WS + k * WS) by lia.
    rewrite P2, P1, firstn_add, <- Ew. apply app_assoc_reverse.
Qed.

(* the two copies inside the output are one: k blocks of b bytes, b = 1 (safe_copy) or b = WS (overrun_copy) *)
Definition copy_out (b : nat) : nat -> list N -> nat -> nat -> option (list N) :=
  fix go k out d s := match k with
  | O => Some out
  | S k' => w <- read_at out s b ;; out' <- write_at out d w ;; go k' out' (d + b) (s + b)
  end.
Lemma overrun_out_copy : overrun_out = copy_out WS.
Proof. reflexivity. Qed.
Lemma safe_out_copy n : forall out d s, safe_out n out d s = copy_out 1 n out d s.
Proof.
  induction n as [|n IH]; intros out d s; cbn [safe_out copy_out]; [reflexivity|].
  destruct (read_at out s 1) as [w|]; cbn [bind]; [|reflexivity]. destruct (write_at out d w); cbn [bind]; [|reflexivity].
  rewrite !Nat.add_1_r. apply IH.
Qed.

(* a block no longer than the distance lies wholly in what is already decoded: block-wise is byte-wise *)
Lemma copy_out_spec b k : forall out d dist, b <= dist <= d -> match copy_out b k out d (d - dist) with
  | Some out' => length out' = length out /\ ref_match (k * b) dist (abs out d) = Some (abs out' (d + k * b)) /\ (k * b = 0 \/ d + k * b <= length out)
  | None => length out < d + k * b end.
Proof.
  induction k as [|k IH]; intros out d dist Hd; cbn [copy_out].
  - cbn [Nat.mul]. rewrite Nat.add_0_r. auto.
  - pose proof (read_at_spec out (d - dist) b) as Hr. destruct (read_at out (d - dist) b) as [w|]; cbn [bind]; [|lia].
    destruct Hr as (Ew & Lw & Bw).
    pose proof (write_at_spec out d w) as Hw. rewrite Lw in Hw. destruct (write_at out d w) as [o1|]; cbn [bind]; [|lia].
    destruct Hw as (L1 & P1 & B1). specialize (IH o1 (d + b) dist ltac:(lia)). replace (d + b - dist) with (d - dist + b) in IH by lia.
    destruct (copy_out b k o1 (d + b) (d - dist + b)) as [out'|]; [|lia]. destruct IH as (L2 & R2 & B2). split; [lia|]. split; [|lia].
    replace (d + S k * b) with (d + b + k * b) by lia. replace (S k * b) with (b + k * b) by lia.
    rewrite <- R2, (abs_app P1), ref_match_app, (ref_match_block b dist out d), <- Ew by lia. reflexivity.
Qed.

Lemma read_ext_ref s : forall l m0, s <> [] -> l = cap m0 ->
  let '(l2, r2) := read_ext s l in
  length r2 < length s /\ (l <= l2 < U32)%N /\
  match ref_len s m0 with Some (m, r) => r2 = r /\ l2 = cap m | None => r2 = [] end.
Proof.
  induction s as [|b r IH]; intros l m0 Hne Hl; [congruence|]. cbn [read_ext ref_len length].
  set (l' := (if (l + b <? U32)%N then (l + b)%N else (U32 - 1)%N)).
  assert (Hl' : l' = cap (m0 + N.to_nat b) /\ (l <= l' < U32)%N) by (unfold l', cap, U32 in *; destruct (l + b <? 4294967296)%N eqn:E; lia).
  destruct (b =? 255)%N eqn:Eb.
  - apply N.eqb_eq in Eb. subst b. destruct r as [|b2 r']; [cbn [ref_len length]; repeat split; lia|].
    specialize (IH l' (m0 + 255) ltac:(discriminate) (proj1 Hl')). destruct (read_ext (b2 :: r') l') as [l2 r2].
    destruct IH as (I1 & I2 & I3). repeat split; try lia. exact I3.
  - repeat split; lia.
Qed.

(* [l2 = N.of_nat m] when no extension byte is read: the nibble as it is, of any size since bytes are not assumed below 256 *)
Lemma read_literal_ref s nib :
  let '(l2, r2) := read_literal s nib in
  length r2 <= length s /\ ((nib < U32)%N -> (l2 < U32)%N) /\
  match ref_length nib s with Some (m, r) => r2 = r /\ (l2 = cap m \/ l2 = N.of_nat m) | None => r2 = [] /\ (15 <= l2)%N end.
Proof.
  unfold read_literal, ref_length. destruct (N.eqb_spec nib 15) as [->|Hne].
  - destruct s as [|b r]; [cbn; repeat split; lia|].
    pose proof (read_ext_ref (b :: r) 15%N 15 ltac:(discriminate) eq_refl) as H. destruct (read_ext (b :: r) 15) as [l2 r2].
    destruct H as (H1 & H2 & H3). repeat split; try lia. destruct (ref_len (b :: r) 15) as [[m r']|]; [tauto|split; [exact H3|lia]].
  - destruct s; (repeat split; [lia|tauto|lia]).
Qed.

Lemma read_literal_suffix {s nib l2 r2} : read_literal s nib = (l2, r2) -> length r2 <= length s.
Proof. intros E. pose proof (read_literal_ref s nib) as H. rewrite E in H. apply H. Qed.
Lemma ref_length_of_read {s nib l2 r2} : read_literal s nib = (l2, r2) -> (l2 < U32 - 1)%N -> 0 < length r2 ->
  ref_length nib s = Some (N.to_nat l2, r2).
Proof.
  intros E Hl Hr. pose proof (read_literal_ref s nib) as H. rewrite E in H. destruct H as (_ & _ & H).
  destruct (ref_length nib s) as [[m r]|].
  - destruct H as (<- & Hm). apply cap_exact in Hm; [subst m; reflexivity|lia].
  - destruct H as (-> & _). cbn [length] in Hr. lia.
Qed.

Lemma read_sequence_spec s : match read_sequence s with
  | SeqTrap => s = []
  | SeqEnd lit ll => exists tok r1, s = tok :: r1 /\ read_literal r1 (tok / 16)%N = (ll, lit) /\ (N.of_nat (length lit) < ll + 2)%N
  | SeqMatch more lit ll ml md rest => exists tok r1 d0 d1 r4 ml0, s = tok :: r1 /\ read_literal r1 (tok / 16)%N = (ll, lit) /\
      skipn (N.to_nat ll) lit = d0 :: d1 :: r4 /\ md = (d0 + 256 * d1)%N /\ read_literal r4 (tok mod 16)%N = (ml0, rest) /\
      ml = ((ml0 + N.of_nat MINMATCH) mod U32)%N /\ more = (MINCODA <=? length rest)
  end.
Proof.
  unfold read_sequence. destruct s as [|tok r1]; [reflexivity|].
  destruct (read_literal r1 (tok / 16)%N) as [ll lit] eqn:E1.
  destruct (N.ltb_spec (N.of_nat (length lit)) (ll + 2)) as [E2|E2]; [exists tok, r1; auto|].
  destruct (skipn (N.to_nat ll) lit) as [|d0 [|d1 r4]] eqn:E3;
    [apply (f_equal (@length N)) in E3; rewrite skipn_length in E3; cbn [length] in E3; lia ..|].
  destruct (read_literal r4 (tok mod 16)%N) as [ml0 r5] eqn:E4. exists tok, r1, d0, d1, r4, ml0. auto 10.
Qed.

Lemma read_sequence_sizes {s more lit ll ml md rest} : read_sequence s = SeqMatch more lit ll ml md rest ->
  N.to_nat ll + 2 + length rest <= length lit < length s /\ more = (MINCODA <=? length rest).
Proof.
  intros E. pose proof (read_sequence_spec s) as H. rewrite E in H.
  destruct H as (tok & r1 & d0 & d1 & r4 & ml0 & -> & E1 & E3 & _ & E4 & _ & Hm).
  apply read_literal_suffix in E1, E4. apply (f_equal (@length N)) in E3. rewrite skipn_length in E3. cbn [length] in *. lia.
Qed.

(* the body of [loop], cut into its stages *)
Definition last_stage (out : list N) (d orem : nat) (lit : list N) (ll : N) : res :=
  if negb (N.of_nat (length lit) =? ll)%N || (N.of_nat orem <? ll)%N then Fail
  else match write_at out d (firstn (N.to_nat ll) lit) with
       | None => Trap
       | Some out' => Ok (d + N.to_nat ll) out'
       end.

Definition lit_stage (out : list N) (d orem : nat) (lit : list N) (ll : N) : option (option (list N * nat * nat)) :=
  let lln := N.to_nat ll in
  if (ll =? 0)%N then Some (Some (out, d, orem))
  else if (N.of_nat orem <? N.of_nat (align lln))%N then Some None
  else match overrun_in (words lln) out d lit with
       | None => None
       | Some out' => Some (Some (out', d + lln, orem - lln))
       end.

Definition match_guard (d1 orem1 : nat) (ml md : N) : bool :=
  (d1 <? N.to_nat md) || (u32_of_size_minus orem1 LASTLITERALS <? ml)%N || (orem1 <? LASTLITERALS) || (N.to_nat md =? 0)
  || (ml <? N.of_nat MINMATCH)%N.

Definition match_copy (out1 : list N) (d1 orem1 mln mdn : nat) : option (list N) :=
  if (WS <? mdn) && (align mln <=? orem1) then overrun_out (words mln) out1 d1 (d1 - mdn)
  else safe_out mln out1 d1 (d1 - mdn).

Lemma loop_S f s out d orem : loop (S f) s out d orem =
  match read_sequence s with
  | SeqTrap => Trap
  | SeqEnd lit ll | SeqMatch false lit ll _ _ _ => last_stage out d orem lit ll
  | SeqMatch true lit ll ml md rest =>
      match lit_stage out d orem lit ll with
      | None => Trap
      | Some None => Fail
      | Some (Some (out1, d1, orem1)) =>
          if match_guard d1 orem1 ml md then Fail
          else match match_copy out1 d1 orem1 (N.to_nat ml) (N.to_nat md) with
               | None => Trap
               | Some out2 => loop f rest out2 (d1 + N.to_nat ml) (orem1 - N.to_nat ml)
               end
      end
  end.
Proof. reflexivity. Qed.

Lemma last_stage_spec out d orem lit ll : match last_stage out d orem lit ll with
  | Ok n out' => N.of_nat (length lit) = ll /\ n = d + length lit /\ length out' = length out /\ n <= length out /\ abs out' n = rev lit ++ abs out d
  | Trap => length out < d + orem
  | Fail => N.of_nat (length lit) <> ll \/ orem < length lit
  | OutOfFuel => False end.
Proof.
  unfold last_stage. destruct (N.eqb_spec (N.of_nat (length lit)) ll) as [E|E]; [|left; exact E]. cbn [negb orb].
  destruct (N.ltb_spec (N.of_nat orem) ll) as [Ho|Ho]; [right; lia|].
  assert (El : N.to_nat ll = length lit) by lia. rewrite El, firstn_all.
  pose proof (write_at_spec out d lit) as Hw. destruct (write_at out d lit) as [out'|]; [|lia].
  destruct Hw as (L & P & B). apply abs_app in P. auto 6.
Qed.

Lemma lit_stage_spec out d orem lit ll : N.to_nat ll + 7 <= length lit -> match lit_stage out d orem lit ll with
  | Some (Some (out1, d1, orem1)) => d1 = d + N.to_nat ll /\ orem1 = orem - N.to_nat ll /\ N.to_nat ll <= orem /\ length out1 = length out /\
                                     abs out1 d1 = rev (firstn (N.to_nat ll) lit) ++ abs out d
  | Some None => orem < align (N.to_nat ll)
  | None => length out < d + orem end.
Proof.
  intros Hlit. unfold lit_stage. pose proof (align_bound (N.to_nat ll)) as Hal. destruct (N.eqb_spec ll 0) as [->|E0].
  - repeat split; lia.
  - destruct (N.ltb_spec (N.of_nat orem) (N.of_nat (align (N.to_nat ll)))) as [Ho|Ho]; [lia|].
    pose proof (overrun_in_spec (words (N.to_nat ll)) out d lit) as Hc. rewrite words_align in Hc by lia.
    destruct (overrun_in (words (N.to_nat ll)) out d lit) as [out1|]; [|lia]. destruct Hc as (L1 & P1 & B1).
    repeat split; try lia. apply abs_app. apply (f_equal (firstn (d + N.to_nat ll))) in P1.
    rewrite firstn_firstn, Nat.min_l, firstn_app_at, firstn_firstn, Nat.min_l in P1 by (rewrite ?firstn_length; lia). exact P1.
Qed.

(* the guard is exact as long as the room left fits 32 bits; beyond that the truncated difference only makes it refuse more *)
Lemma match_guard_spec d1 orem1 ml md :
  (match_guard d1 orem1 ml md = false -> 1 <= N.to_nat md <= d1 /\ 4 <= N.to_nat ml /\ N.to_nat ml + 5 <= orem1) /\
  (match_guard d1 orem1 ml md = true -> (N.of_nat orem1 < U32)%N ->
   N.to_nat md = 0 \/ d1 < N.to_nat md \/ N.to_nat ml < 4 \/ orem1 < N.to_nat ml + 5).
Proof.
  unfold match_guard, LASTLITERALS, MINMATCH. destruct (Nat.ltb_spec orem1 5) as [Ho|Ho]; [lia|].
  pose proof (u32_minus orem1 5 Ho). lia.
Qed.

Lemma match_copy_spec out1 d1 orem1 mln mdn : 1 <= mdn <= d1 -> 1 <= mln <= orem1 -> match match_copy out1 d1 orem1 mln mdn with
  | Some out2 => length out2 = length out1 /\ d1 + mln <= length out1 /\ ref_match mln mdn (abs out1 d1) = Some (abs out2 (d1 + mln))
  | None => length out1 < d1 + orem1 end.
Proof.
  intros Hd Hm. unfold match_copy. pose proof (align_bound mln) as Hal.
  destruct ((WS <? mdn) && (align mln <=? orem1)) eqn:E.
  - rewrite overrun_out_copy. pose proof (copy_out_spec WS (words mln) out1 d1 mdn ltac:(lia)) as Hc. rewrite words_align in Hc by lia.
    destruct (copy_out WS (words mln) out1 d1 (d1 - mdn)) as [out2|]; [|lia]. destruct Hc as (L2 & R2 & B2).
    repeat split; try lia. replace (align mln) with (mln + (align mln - mln)) in R2 by lia.
    apply ref_match_prefix in R2; [exact R2|lia].
  - rewrite safe_out_copy. pose proof (copy_out_spec 1 mln out1 d1 mdn Hd) as Hc. rewrite Nat.mul_1_r in Hc.
    destruct (copy_out 1 mln out1 d1 (d1 - mdn)) as [out2|]; [|lia]. destruct Hc as (L2 & R2 & B2). repeat split; try lia. exact R2.
Qed.
