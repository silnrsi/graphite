(* Proofs/CmapCache.v — the cmap cache fill loop (cache_subtable), for ARBITRARY iteration / lookup functions:
   termination within the binary fuel, and — under an interface that says what NextCodepoint may skip —
   agreement of the filled cache with the direct lookup on every code point up to the limit. *)
From GR Require Import Model.CmapModel.
From Coq Require Import FMapPositive ZifyBool.
Local Open Scope N_scope.

Lemma cget_cset_same m c g : cget (cset m c g) c = g.
Proof. unfold cget, cset. rewrite PositiveMap.gss. reflexivity. Qed.
Lemma cget_cset_other m c d g : c <> d -> cget (cset m c g) d = cget m d.
Proof.
  intros H. unfold cget, cset. rewrite PositiveMap.gso; [reflexivity|].
  intros E. apply H. apply (f_equal Pos.pred_N) in E. rewrite !N.pos_pred_succ in E. symmetry. exact E.
Qed.

Lemma cget_empty d : cget (PositiveMap.empty N) d = 0.
Proof. unfold cget. rewrite PositiveMap.gempty. reflexivity. Qed.

Section Loop.
  Variable nextf : N -> N -> option (N * N).
  Variable lookf : N -> N -> option N.
  Variable limit : N.
  Let step := cache_step nextf lookf limit.

  Lemma step_progress m cp key m' cp' key' : step (CRun m cp key) = CRun m' cp' key' -> cp < cp' /\ cp <= limit.
  Proof.
    unfold step, cache_step. destruct (limit <? cp) eqn:E1; [discriminate|].
    destruct (lookf cp key) as [g|]; [|discriminate].
    destruct (cp =? limit) eqn:E2; [discriminate|].
    destruct (if cp =? 0 then Some (0, key) else nextf cp key) as [[nx k']|]; [|discriminate].
    destruct (nx <=? cp) eqn:E3; intros H; inversion H; subst; lia.
  Qed.

  Lemma iter_run_bound p : forall m cp key m' cp' key', Pos.iter step (CRun m cp key) p = CRun m' cp' key' ->
    cp + N.pos p <= cp' /\ cp + N.pos p <= limit + 1.
  Proof.
    induction p as [|p IH] using Pos.peano_ind; intros m cp key m' cp' key' H.
    - apply step_progress in H. lia.
    - rewrite Pos.iter_succ in H. destruct (Pos.iter step (CRun m cp key) p) as [m1 cp1 key1| |] eqn:E; [|discriminate H|discriminate H].
      apply IH in E. apply step_progress in H. lia.
  Qed.

  (* [cache_run] is unfolded in the goal, before H is introduced: converting a hypothesis about [cache_run] into one about
     [Pos.iter] makes Qed run the loop on the concrete [cache_fuel] *)
  Theorem cache_run_terminates m cp key : limit <= 0x10FFFF ->
    forall m' cp' key', cache_run nextf lookf limit (CRun m cp key) <> CRun m' cp' key'.
  Proof.
    intros Hl m' cp' key'. unfold cache_run. intros H. apply iter_run_bound in H. unfold cache_fuel in H. lia.
  Qed.

  Theorem cache_subtable_terminates m : limit <= 0x10FFFF -> cache_subtable nextf lookf limit m <> Some None.
  Proof.
    intros Hl. unfold cache_subtable. destruct (nextf 0 0) as [[c0 k0]|]; [|discriminate].
    pose proof (cache_run_terminates m c0 k0 Hl) as T.
    destruct (cache_run nextf lookf limit (CRun m c0 k0)); cbn [cache_result]; [exfalso; eapply T; reflexivity|discriminate|discriminate].
  Qed.

  (* interface: [dl c] is the direct lookup; [G c key] says that the range key [key] may be used for code point [c] *)
  Variable dl : N -> N.
  Variable G : N -> N -> Prop.
  Hypothesis G_look : forall c key, c <= limit -> G c key -> lookf c key = Some (dl c).
  Hypothesis G_zero : forall c, c <= limit -> G c 0.
  Hypothesis next_good : forall c key n k, 0 < c -> c < limit -> G c key -> nextf c key = Some (n, k) -> c < n -> n <= limit -> G n k.
  Hypothesis next_skips : forall c key n k, 0 < c -> c < limit -> G c key -> nextf c key = Some (n, k) -> forall d, c < d -> d < n -> d <= limit -> dl d = 0.
  Hypothesis next_total : forall c key, 0 < c -> c < limit -> G c key -> nextf c key <> None.

  (* invariant of a running state: everything below cp is already right in the map; cp's key is good; the map is
     untouched (as initially) from cp upwards *)
  Variable m0 : cmap.
  Definition inv (s : cstate) : Prop :=
    match s with
    | CRun m cp key => (cp <= limit -> G cp key) /\ (forall d, d < cp -> d <= limit -> cget m d = dl d) /\ (forall d, cp <= d \/ limit < d -> cget m d = cget m0 d)
    | CDone m => (forall d, d <= limit -> cget m d = dl d) /\ (forall d, limit < d -> cget m d = cget m0 d)
    | CTrap => False
    end.
  Hypothesis m0_zero : forall d, d <= limit -> dl d = 0 -> cget m0 d = 0.

  Lemma step_inv s : inv s -> inv (step s).
  Proof.
    destruct s as [m cp key|m|]; [|intros H; exact H|intros H; exact H].
    intros (Hg & Hlow & Hhigh). unfold step, cache_step.
    destruct (limit <? cp) eqn:E1.
    - split; [intros d Hd; apply Hlow; lia|intros d Hd; apply Hhigh; lia].
    - assert (Hg' : G cp key) by (apply Hg; lia). rewrite (G_look cp key ltac:(lia) Hg').
      assert (Hstore_low : forall d, d <= cp -> d <= limit -> cget (cset m cp (dl cp)) d = dl d).
      { intros d Hd Hd2. destruct (N.eq_dec cp d) as [->|Hne]; [apply cget_cset_same|].
        rewrite cget_cset_other by exact Hne. apply Hlow; lia. }
      assert (Hstore_high : forall d, cp < d \/ limit < d -> cget (cset m cp (dl cp)) d = cget m0 d).
      { intros d Hd. rewrite cget_cset_other by lia. apply Hhigh. lia. }
      destruct (cp =? limit) eqn:E2.
      + split; [intros d Hd; apply Hstore_low; lia|intros d Hd; apply Hstore_high; lia].
      + destruct (if cp =? 0 then Some (0, key) else nextf cp key) as [[nx k']|] eqn:En.
        2: { destruct (cp =? 0) eqn:E3; [discriminate|]. apply (next_total cp key); [lia|lia|exact Hg'|exact En]. }
        destruct (nx <=? cp) eqn:E5; cbn [inv].
        * (* no progress (always so at cp = 0): on to cp + 1 with key 0 *)
          split; [intros _; apply G_zero; lia|]. split.
          -- intros d Hd Hd2. apply Hstore_low; lia.
          -- intros d Hd. apply Hstore_high. lia.
        * assert (E3 : (cp =? 0) = false) by (destruct (cp =? 0); [injection En as <- <-; lia|reflexivity]). rewrite E3 in En.
          split; [intros Hnl; apply (next_good cp key nx k'); try assumption; lia|]. split.
          -- intros d Hd Hd2.
             destruct (N.le_gt_cases d cp) as [Hle|Hgt]; [apply Hstore_low; lia|].
             rewrite Hstore_high by lia.
             assert (Hz : dl d = 0) by (apply (next_skips cp key nx k'); try assumption; lia).
             rewrite Hz. apply m0_zero; [lia|exact Hz].
          -- intros d Hd. apply Hstore_high. lia.
  Qed.

  Hypothesis first_good : forall c0 k0, nextf 0 0 = Some (c0, k0) -> (c0 <= limit -> G c0 k0) /\ (forall d, d < c0 -> d <= limit -> dl d = 0).

  (* the loop keeps [inv], so it never traps: only the first NextCodepoint call can *)
  Lemma cache_subtable_inv : match cache_subtable nextf lookf limit m0 with
                             | Some (Some m) => inv (CDone m) | Some None => True | None => nextf 0 0 = None end.
  Proof.
    unfold cache_subtable. destruct (nextf 0 0) as [[c0 k0]|]; [|reflexivity].
    destruct (first_good c0 k0 eq_refl) as [Fg Fz].
    assert (H : inv (cache_run nextf lookf limit (CRun m0 c0 k0))).
    { unfold cache_run. apply Pos.iter_invariant; [apply step_inv|]. split; [exact Fg|]. split; [|reflexivity].
      intros d Hd Hd2. rewrite (Fz d Hd Hd2). apply m0_zero; [exact Hd2|apply Fz; assumption]. }
    destruct (cache_run nextf lookf limit (CRun m0 c0 k0)); [exact I|exact H|destruct H].
  Qed.

  Theorem cache_subtable_agrees_G m : cache_subtable nextf lookf limit m0 = Some (Some m) ->
    (forall d, d <= limit -> cget m d = dl d) /\ (forall d, limit < d -> cget m d = cget m0 d).
  Proof. intros E. pose proof cache_subtable_inv as H. rewrite E in H. exact H. Qed.

  Theorem cache_subtable_total_G : nextf 0 0 <> None -> limit <= 0x10FFFF ->
    exists m, cache_subtable nextf lookf limit m0 = Some (Some m) /\ forall d, d <= limit -> cget m d = dl d.
  Proof.
    intros FT Hl. pose proof cache_subtable_inv as H. pose proof (cache_subtable_terminates m0 Hl) as T.
    destruct (cache_subtable nextf lookf limit m0) as [[m|]|]; [|contradiction|contradiction].
    exists m. split; [reflexivity|apply H].
  Qed.
End Loop.

(* the weakest key predicate the interface admits: a key is good when the keyed lookup returns the direct result
   (C13_cached_eq_direct_partial states the loop over it) *)
Definition good (lookf : N -> N -> option N) (dl : N -> N) (c key : N) : Prop := lookf c key = Some (dl c).
