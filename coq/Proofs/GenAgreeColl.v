(* Proofs/GenAgreeColl.v — the predicate of the limit clause of C17.  The clause itself is stated and proved in Properties_C17.v,
   directly over the definitions that tools/gen_src.py regenerates from ShiftCollider::initSlot and ShiftCollider::resolve
   (Gen/GenColl.v): whatever position closest() picks inside the range of an axis, the shift that resolve() derives from it keeps
   offset + shift inside the limit rectangle. *)
From GR Require Import Base.Bytes.
Local Open Scope Z_scope.

Section Limit.
  Variables Lbx Lby Ltx Lty ox oy : Z.
  (* twice (offset + new shift) lies inside twice the limit rectangle *)
  Definition inside2 (t : Z * Z) : Prop := 2 * Lbx <= 2 * ox + fst t <= 2 * Ltx /\ 2 * Lby <= 2 * oy + snd t <= 2 * Lty.
End Limit.
