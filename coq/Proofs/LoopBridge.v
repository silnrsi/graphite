(* Proofs/LoopBridge.v — the rule loop of the reference semantics (Model/RuleModel.v: loop_step / loop_run, the executable definitions
   that the C06 correspondence runs against the engine) satisfies the hypothesis of the C02 loop bound (Model/LoopModel.v: laccept):
   the measure  mu = (slots from the high-water mark to the end) + (remaining insert budget)  never increases over an iteration and
   decreases at every reset of the loop counter.  Hence every pass of the reference semantics terminates within
   maxloop * (mu0 + 1) iterations and run_pass_b never runs out of fuel.  The walk through a rule that shows this also gives the lengths
   on which the termination of the simple pass (run_pass) rests. *)
From GR Require Import Model.RuleModel Model.LoopModel Proofs.LoopProofs Proofs.RuleProofs.
From Coq Require Import List NArith ZArith Lia Bool.
Import ListNotations.
Set Implicit Arguments.
Unset Strict Implicit.

Section LoopBridge.
  Variable adv : N -> Z.

  (* between iterations: the high-water mark and the cursor, when not null, are slots of the stream; a budget is tracked; the
     loop counter is within its limit; highpassed is clear while the cursor is live *)
  Definition okhw (l : list slot) (hw : option nat) : Prop := match hw with Some h => (h < length l)%nat | None => True end.
  Definition inb (l : list slot) (s : option nat) : Prop := forall k, s = Some k -> (k < length l)%nat.
  Definition Inv (maxloop : nat) (st : lstate) : Prop :=
    (exists n, ls_b st = Some n) /\ okhw (ls_l st) (ls_hw st) /\ inb (ls_l st) (ls_s st) /\ (1 <= ls_lc st <= maxloop)%nat /\ (ls_s st <> None -> ls_hp st = false).

  (* Everything below reasons about the high-water mark through its index [hwp l hw] (the length when it is null). *)
  (* a cursor that is not null stands on a slot of the stream; highpassed means it is strictly after the high-water slot *)
  Definition cur_ok (l : list slot) (hw : option nat) (hp : bool) (s : option nat) : Prop :=
    forall k, s = Some k -> (k < length l)%nat /\ (hp = true -> hwp l hw < k)%nat.
  (* the state inside a rule, with the cursor on slot [pos]; [m] bounds the measure *)
  Definition mid (m : nat) (l : list slot) (pos : nat) (hw : option nat) (hp : bool) (b : option alloc) : Prop :=
    b <> None /\ okhw l hw /\ (hp = true -> hwp l hw < pos)%nat /\ (sfh l hw + bud b <= m)%nat.

  Lemma oeq_spec a k : oeq a k = true <-> a = Some k.
  Proof. destruct a as [x|]; cbn; [rewrite Nat.eqb_eq; split; congruence | split; discriminate]. Qed.
  Lemma hwp_nxt l k : (k < length l)%nat -> okhw l (nxt l k) /\ hwp l (nxt l k) = S k.
  Proof. unfold nxt. destruct (Nat.ltb_spec (S k) (length l)); cbn; lia. Qed.
  Lemma nxt_some l k k' : nxt l k = Some k' -> k' = S k /\ (S k < length l)%nat.
  Proof. unfold nxt. destruct (Nat.ltb_spec (S k) (length l)); [|discriminate]. intros E. injection E as <-. split; [reflexivity|assumption]. Qed.
  (* NEXT: if (is == highwater) highpassed = true; is = is->next *)
  Lemma hp_next l hw hp k : (hp = true -> hwp l hw < k)%nat -> (if oeq hw k then true else hp) = true -> (hwp l hw < S k)%nat.
  Proof. intros Hj E. destruct (oeq hw k) eqn:Eo; [apply oeq_spec in Eo; subst hw; cbn; lia | specialize (Hj E); lia]. Qed.
  Lemma hw_delete l hw pos : okhw l hw -> (pos < length l)%nat ->
    let hw2 := if oeq hw pos then nxt l pos else hw in
    let hw3 := match hw2 with Some h => if Nat.ltb pos h then Some (h - 1)%nat else Some h | None => None end in
    okhw (remove_at l pos) hw3 /\ hwp (remove_at l pos) hw3 = if Nat.ltb pos (hwp l hw) then (hwp l hw - 1)%nat else hwp l hw.
  Proof.
    intros Hh Hp. pose proof (remove_at_length Hp) as L3. destruct hw as [h|]; cbn [oeq hwp okhw] in *.
    - destruct (Nat.eqb_spec h pos) as [->|Hne].
      + unfold nxt. destruct (Nat.ltb_spec pos pos); [lia|]. destruct (Nat.ltb_spec (S pos) (length l)); [destruct (Nat.ltb_spec pos (S pos))|]; cbn [okhw hwp]; lia.
      + destruct (Nat.ltb_spec pos h); cbn [okhw hwp]; lia.
    - destruct (Nat.ltb_spec pos (length l)); lia.
  Qed.

  (* [mid m] is kept by every elementary operation of a rule: a change of the budget that does not raise it (a refused INSERT, the
     pool operations of TEMP_COPY and of the end of the rule), a change of slots in place, INSERT, DELETE, NEXT *)
  Lemma mid_bud m l pos hw hp b b' : mid m l pos hw hp b -> b' <> None -> (bud b' <= bud b)%nat -> mid m l pos hw hp b'.
  Proof. intros (Hb & Hh & Hj & Hs) Hb' Hle. repeat split; try assumption. lia. Qed.
  Lemma mid_len m l l' pos hw hp b : mid m l pos hw hp b -> length l' = length l -> mid m l' pos hw hp b.
  Proof. intros Hm E. unfold mid, sfh in *. destruct hw; cbn [okhw hwp] in *; rewrite ?E; exact Hm. Qed.
  Lemma mid_next m l pos hw hp b : mid m l pos hw hp b -> mid m l (S pos) hw (if oeq hw pos then true else hp) b.
  Proof. intros (Hb & Hh & Hj & Hs). repeat split; try assumption. exact (hp_next Hj). Qed.
  (* INSERT: the budget pays for the new slot when it appears after the high-water mark *)
  Lemma mid_insert m l pos hw hp a a' x : mid m l pos hw hp (Some a) -> (a_bud a' < a_bud a)%nat ->
    mid m (insert_at l pos x) (S pos) (match hw with Some h => if Nat.leb pos h then Some (S h) else Some h | None => None end)
        (if oeq hw pos then false else hp) (Some a').
  Proof.
    intros (Hb & Hh & Hj & Hs) Ha. unfold mid, sfh in *. cbn [bud] in *. split; [discriminate|].
    destruct hw as [h|]; cbn [okhw hwp oeq] in *.
    - destruct (Nat.leb_spec pos h); cbn [okhw hwp]; rewrite insert_at_length; (split; [lia|]); (split; [|lia]);
        intros E; destruct (Nat.eqb_spec h pos); try discriminate; specialize (Hj E); lia.
    - rewrite insert_at_length. split; [exact I|]. split; [intros E; specialize (Hj E)|]; lia.
  Qed.
  (* DELETE.  In the C++ the setter SlotMap::highwater(s), called when `is` is the high-water slot, also clears highpassed; do_item does
     not, and need not: by the third clause of [mid] highpassed is false whenever the cursor stands on the high-water slot. *)
  Lemma mid_delete m l pos hw hp b : mid m l pos hw hp b -> (pos < length l)%nat ->
    let hw2 := if oeq hw pos then nxt l pos else hw in
    let hw3 := match hw2 with Some h => if Nat.ltb pos h then Some (h - 1)%nat else Some h | None => None end in
    mid m (remove_at l pos) pos hw3 (match prv pos with Some p => if oeq hw3 p then true else hp | None => hp end) b.
  Proof.
    intros (Hb & Hh & Hj & Hs) Hp. destruct (hw_delete Hh Hp) as [K1 K2]. cbv zeta in *.
    set (hw3 := match (if oeq hw pos then _ else _) with Some _ => _ | None => _ end) in *.
    split; [exact Hb|]. split; [exact K1|]. unfold sfh in *. rewrite K2, remove_at_length by exact Hp. split; [|destruct (Nat.ltb_spec pos (hwp l hw)); lia].
    destruct pos as [|p]; cbn [prv]; intros E; [specialize (Hj E); lia|].
    destruct (oeq hw3 p) eqn:Eo; [apply oeq_spec in Eo; rewrite Eo in K2; cbn [hwp] in K2; lia|].
    destruct (Nat.ltb_spec (S p) (hwp l hw)); lia.
  Qed.

  (* One walk through each level of a substitution rule: what it does to the lengths, for any budget (without one nothing dies), and
     that it keeps [mid m]. *)
  Lemma do_inserts_spec : forall acts l pos hw hp b l1 pos1 hw1 hp1 b1 dead,
    do_inserts adv acts l pos hw hp b = (l1, pos1, hw1, hp1, b1, dead) ->
    ((length l1 + pos = length l + pos1)%nat /\ (b = None -> dead = false /\ b1 = None)) /\
    (forall m, mid m l pos hw hp b -> mid m l1 pos1 hw1 hp1 b1).
  Proof.
    induction acts as [|x rest IH]; intros l pos hw hp b l1 pos1 hw1 hp1 b1 dead H; cbn [do_inserts] in H.
    - injection H as <- <- <- <- <- <-. auto.
    - destruct x; try (eapply IH; exact H). destruct b as [a|].
      + destruct (Nat.leb_spec (a_bud a) 1); [|destruct (newslot (set_bud a (a_bud a - 1)) (length l)) as [a'|] eqn:En].
        2:{ apply newslot_bud in En. cbn in En. apply IH in H. rewrite insert_at_length in H. destruct H as [[I1 _] I2].
            split; [split; [lia | discriminate]|]. intros m Hm. apply I2, (mid_insert _ Hm). lia. }
        (* the budget or the pool is exhausted: the machine dies where it stands *)
        all: injection H as <- <- <- <- <- <-; (split; [split; [reflexivity | discriminate]|]); intros m Hm; apply (mid_bud Hm); [discriminate | cbn; lia].
      + apply IH in H. rewrite insert_at_length in H. destruct H as [[I1 I3] _].
        split; [split; [lia | intros _; exact (I3 eq_refl)] | intros m [[] _]; reflexivity].
  Qed.

  (* one item: inserts, TEMP_COPY (it draws on the pool, not on the budget), own actions, then DELETE or NEXT *)
  Lemma do_item_spec r orig dn j acts l pos hw hp b l1 pos1 hw1 hp1 dn1 b1 dead :
    do_item adv r orig dn j acts l pos hw hp b = (l1, pos1, hw1, hp1, dn1, b1, dead) -> (pos < length l)%nat ->
    ((dead = false -> length l1 + pos + 1 = length l + pos1)%nat /\ (b = None -> dead = false /\ b1 = None)) /\
    (forall m, mid m l pos hw hp b -> mid m l1 pos1 hw1 hp1 b1).
  Proof.
    unfold do_item. destruct (do_inserts adv acts l pos hw hp b) as [[[[[la pa] ha] hpa] ba] da] eqn:Ei. intros H Hp.
    destruct (do_inserts_spec Ei) as [[M1 M3] Mm].
    destruct da; [injection H as <- <- <- <- <- <- <-; split; [split; [discriminate | exact M3] | exact Mm]|].
    (* TEMP_COPY: refused only when there is a budget to track; the budget stays *)
    set (d := if tempc r j then _ else Some ba) in H.
    assert (Hd : match d with Some bb => (ba = None -> bb = None) /\ forall m, mid m la pa ha hpa ba -> mid m la pa ha hpa bb | None => ba <> None end).
    { unfold d. destruct (tempc r j); [|auto]. destruct ba as [a|]; [|auto]. destruct (newslot a (length la)) as [a'|] eqn:En; [|discriminate].
      split; [discriminate|]. intros m Hm. apply (mid_bud Hm); [discriminate | cbn; rewrite (newslot_bud En); lia]. }
    destruct d as [bb|]; [|injection H as <- <- <- <- <- <- <-; split; [split; [discriminate | intros E; destruct Hd; apply M3, E] | exact Mm]].
    destruct Hd as [Hb Hbm]. set (l2 := upd la pa _) in H. assert (L2 : length l2 = length la) by apply upd_length.
    assert (Hm2 : forall m, mid m l pos hw hp b -> mid m l2 pa ha hpa bb) by (intros m Hm; exact (mid_len (Hbm m (Mm m Hm)) L2)).
    destruct (has_delete acts); injection H as <- <- <- <- <- <- <-; (split; [split; [intros _ | intros E; split; [reflexivity | apply Hb, M3, E]]|]).
    - rewrite remove_at_length; lia.
    - intros m Hm. apply (mid_delete (Hm2 m Hm)). lia.
    - lia.
    - intros m Hm. apply mid_next, Hm2, Hm.
  Qed.

  Lemma do_items_spec r orig : forall n dn j acts l pos hw hp b l1 pos1 hw1 hp1 b1 dead,
    do_items adv r orig dn j n acts l pos hw hp b = (l1, pos1, hw1, hp1, b1, dead) -> (pos + n <= length l)%nat ->
    ((dead = false -> length l1 + pos + n = length l + pos1)%nat /\ (b = None -> dead = false)) /\
    (forall m, mid m l pos hw hp b -> mid m l1 pos1 hw1 hp1 b1).
  Proof.
    induction n as [|n IH]; intros dn j acts l pos hw hp b l1 pos1 hw1 hp1 b1 dead H Hp; cbn [do_items] in H.
    - injection H as <- <- <- <- <- <-. split; [split; [lia | reflexivity] | auto].
    - destruct (do_item adv r orig dn j (match acts with a :: _ => a | [] => [] end) l pos hw hp b) as [[[[[[la pa] ha] hpa] da] ba] dd] eqn:Ed.
      destruct (do_item_spec Ed ltac:(lia)) as [[D1 D2] Dm].
      destruct dd; [injection H as <- <- <- <- <- <-; split; [split; [discriminate | intros X; exact (proj1 (D2 X))] | exact Dm]|].
      apply IH in H; [|lia]. destruct H as [[H1 H2] Hm].
      split; [split; [intros X; specialize (H1 X); lia | intros X; apply H2; exact (proj2 (D2 X))] | intros m Hm0; apply Hm, Dm, Hm0].
  Qed.

  Lemma do_items_pos_spec r orig st : forall cnt j acts l hw hp l1 hw1 hp1, do_items_pos adv r orig st j cnt acts l hw hp = (l1, hw1, hp1) ->
    length l1 = length l /\ forall m b, mid m l (st + j) hw hp b -> mid m l1 (st + j + cnt) hw1 hp1 b.
  Proof.
    induction cnt as [|cnt IH]; intros j acts l hw hp l1 hw1 hp1 H; cbn [do_items_pos] in H.
    - injection H as <- <- <-. split; [reflexivity|]. intros m b Hm. rewrite Nat.add_0_r. exact Hm.
    - apply IH in H. rewrite apply_acts_pos_length in H. destruct H as [L Hk]. split; [exact L|]. intros m b Hm.
      replace (st + j + S cnt)%nat with (st + S j + cnt)%nat by lia. apply Hk.
      rewrite <- plus_n_Sm. apply mid_next, (mid_len Hm), apply_acts_pos_length.
  Qed.

  Lemma back_inv l hw : forall n s hp s' hp', back n s hw hp = (s', hp') -> cur_ok l hw hp s -> cur_ok l hw hp' s'.
  Proof.
    induction n as [|n IH]; intros s hp s' hp' H Hc; cbn [back] in H; [injection H as <- <-; exact Hc|].
    destruct s as [k|]; [|injection H as <- <-; exact Hc]. apply IH in H; [exact H|].
    intros k' Ek. destruct k as [|q]; [discriminate Ek|]. injection Ek as <-. destruct (Hc _ eq_refl) as [Hb Hj]. split; [lia|].
    intros E. destruct hp; cbn in E; [|discriminate].
    destruct hw as [h|]; cbn [hwp] in *; [destruct (Nat.eqb_spec q h); [discriminate|]|]; lia.
  Qed.
  Lemma fwd_inv l hw : forall n s hp s' hp', fwd n l s hw hp = (s', hp') -> cur_ok l hw hp s -> cur_ok l hw hp' s'.
  Proof.
    induction n as [|n IH]; intros s hp s' hp' H Hc; cbn [fwd] in H; [injection H as <- <-; exact Hc|].
    destruct s as [k|]; [|injection H as <- <-; exact Hc]. apply IH in H; [exact H|].
    intros k' Ek. apply nxt_some in Ek. destruct Ek as [-> Hk]. split; [exact Hk | exact (hp_next (proj2 (Hc _ eq_refl)))].
  Qed.
  Lemma adjust_inv l delta s hw hp s' hp' : adjust l delta s hw hp = (s', hp') -> okhw l hw -> cur_ok l hw hp s -> cur_ok l hw hp' s'.
  Proof.
    unfold adjust. intros H Hh Hc.
    set (t := match s with Some _ => (s, delta, hp) | None => _ end) in H.
    assert (Ht : cur_ok l hw (snd t) (fst (fst t))).
    { unfold t. destruct s as [k|]; [exact Hc|].
      destruct (hp || match hw with None => true | Some _ => false end) eqn:Ec; cbn [fst snd]; intros k.
      - destruct (length l) as [|q] eqn:El; intros [= <-]. split; [lia|]. intros E.
        destruct hw as [h|]; [|discriminate E]. cbn in *. destruct (Nat.eqb_spec q h); [discriminate|lia].
      - apply orb_false_iff in Ec. destruct Ec as [-> _]. destruct l; intros [= <-]. split; [cbn; lia | discriminate]. }
    destruct t as [[s1 d1] hp1].
    destruct (d1 <? 0)%Z; [exact (back_inv H Ht)|].
    destruct (0 <? d1)%Z; [exact (fwd_inv H Ht)|].
    injection H as <- <-. exact Ht.
  Qed.
  Definition post (m : nat) (t : list slot * option nat * option nat * bool * option alloc * bool) : Prop :=
    let '(l1, s1, hw1, hp1, b1, _) := t in b1 <> None /\ okhw l1 hw1 /\ cur_ok l1 hw1 hp1 s1 /\ (sfh l1 hw1 + bud b1 <= m)%nat.
  Lemma mid_post m l pos hw hp hp' b s [d] : mid m l pos hw hp b -> cur_ok l hw hp' s -> post m (l, s, hw, hp', b, d).
  Proof. unfold mid. cbn [post]. tauto. Qed.
  (* at the end of a rule the cursor is slot pos if there is one, and is then adjusted *)
  Lemma adjust_post m l delta pos hw hp b d : mid m l pos hw hp b ->
    post m (let '(s', hp') := adjust l delta (if Nat.ltb pos (length l) then Some pos else None) hw hp in (l, s', hw, hp', b, d)).
  Proof.
    intros Hm. destruct (adjust l delta _ hw hp) as [s' hp'] eqn:H. apply (mid_post Hm). destruct Hm as (_ & Hh & Hj & _).
    apply (adjust_inv H Hh). intros k. destruct (Nat.ltb_spec pos (length l)); intros [= <-]. split; assumption.
  Qed.

  (* what one iteration does, in arithmetic: the measure does not grow; while the cursor is live the invariant holds again, and either the
     counter went down by one or it was reset and the measure fell *)
  Definition mun (st : lstate) : nat := (sfh (ls_l st) (ls_hw st) + bud (ls_b st))%nat.
  Definition step_ok (maxloop : nat) (st st' : lstate) : Prop :=
    (mun st' <= mun st)%nat /\
    (live st' = true -> Inv maxloop st' /\ (S (ls_lc st') = ls_lc st \/ ls_lc st' = maxloop /\ (mun st' < mun st)%nat)).

  Lemma live_inv maxloop l k hw lc b : b <> None -> okhw l hw -> (k < length l)%nat -> (1 <= lc <= maxloop)%nat ->
    Inv maxloop (mkls0 l (Some k) hw false lc b false).
  Proof.
    intros Hb Hh Hk Hlc. unfold Inv. cbn [ls_b ls_l ls_hw ls_s ls_lc ls_hp]. destruct b as [n|]; [|contradiction].
    repeat split; try lia; try assumption; [exists n; reflexivity | intros q [= <-]; exact Hk].
  Qed.
  (* the loop counter is reset with the high-water mark put after slot k: the initial state, s == highwater, highpassed, counter expiry *)
  Lemma reset_inv maxloop l k b : (1 <= maxloop)%nat -> b <> None -> (k < length l)%nat -> Inv maxloop (mkls0 l (Some k) (nxt l k) false maxloop b false).
  Proof. intros Hml Hb Hk. apply live_inv; [exact Hb | exact (proj1 (hwp_nxt Hk)) | exact Hk | lia]. Qed.
  Lemma reset_ok maxloop st l k hw b : (1 <= maxloop)%nat -> b <> None -> (k < length l)%nat -> (hwp l hw <= k)%nat ->
    (sfh l hw + bud b <= mun st)%nat -> step_ok maxloop st (mkls0 l (Some k) (nxt l k) false maxloop b false).
  Proof.
    intros Hml Hb Hk Hle Hs. assert (Hlt : (mun (mkls0 l (Some k) (nxt l k) false maxloop b false) < mun st)%nat).
    { unfold mun, sfh in *. cbn [ls_l ls_hw ls_b]. rewrite (proj2 (hwp_nxt Hk)). lia. }
    split; [lia|]. intros _. split; [exact (reset_inv Hml Hb Hk) | right; split; [reflexivity | exact Hlt]].
  Qed.

  Lemma loop_step_spec positioning maxloop rules st i : Inv maxloop st -> ls_s st = Some i ->
    step_ok maxloop st (loop_step adv positioning maxloop rules st).
  Proof.
    intros ((n & En) & Hh & _ & Hlc & Hp) Es. specialize (Hp ltac:(congruence)). assert (Hml : (1 <= maxloop)%nat) by lia.
    unfold loop_step. rewrite Es.
    (* t: the first half of loop_step, what the rule (or the step past the slot) leaves; the second half, the counter logic, stays in the goal *)
    set (t := match select rules (ls_l st) i 0 None with Some _ => _ | None => _ end).
    assert (Ht : post (mun st) t).
    { assert (Hm : mid (mun st) (ls_l st) i (ls_hw st) false (ls_b st)) by (repeat split; [congruence | exact Hh | discriminate | exact (le_n _)]).
      subst t. destruct (select rules (ls_l st) i 0 None) as [[kr r]|] eqn:E.
      - destruct (select_sound E) as [_ [Hm' _]]. apply rule_matches_bounds in Hm'.
        destruct positioning.
        + destruct (do_items_pos adv r _ (i - r_pre r) (r_pre r) (r_sort r - r_pre r) (r_acts r) (ls_l st) (ls_hw st) false) as [[l' hw'] hp'] eqn:Ed.
          apply adjust_post. replace (i - r_pre r + r_sort r)%nat with (i - r_pre r + r_pre r + (r_sort r - r_pre r))%nat by lia.
          apply (proj2 (do_items_pos_spec Ed)). replace (i - r_pre r + r_pre r)%nat with i by lia. exact Hm.
        + destruct (do_items adv r _ _ (r_pre r) (r_sort r - r_pre r) (r_acts r) (ls_l st) i (ls_hw st) false (ls_b st)) as [[[[[l' pos'] hw'] hp'] b'] dd] eqn:Ed.
          apply (proj2 (do_items_spec Ed ltac:(lia))) in Hm.
          destruct dd; [apply (mid_post Hm); intros ? [=]|].
          (* give_back returns slots to the pool and leaves the budget *)
          apply adjust_post, (mid_bud Hm); destruct Hm as [K0 _], b'; (discriminate || contradiction || apply le_n).
      - apply (mid_post Hm). intros k Ek. apply nxt_some in Ek. split; [lia | congruence]. }
    destruct t as [[[[[l1 s1] hw1] hp1] b1] dead]. destruct Ht as (K0 & K1 & C1 & S1).
    destruct dead; [split; [exact S1 | discriminate]|].
    destruct s1 as [k|]; [|split; [exact S1 | discriminate]]. destruct (C1 k eq_refl) as [B1 J1].
    destruct (oeq hw1 k || hp1) eqn:Er.
    - (* s == highwater or highpassed: reset *)
      apply (reset_ok (hw:=hw1) Hml K0 B1); [|exact S1].
      apply orb_true_iff in Er. destruct Er as [Er|Er]; [apply oeq_spec in Er; subst hw1; cbn; lia | specialize (J1 Er); lia].
    - apply orb_false_iff in Er. destruct Er as [_ ->].
      destruct (Nat.eqb_spec (ls_lc st - 1) 0) as [Ez|Ez].
      + (* the counter ran out: the cursor goes to the high-water slot *)
        destruct hw1 as [h|]; [exact (reset_ok (hw:=Some h) Hml K0 K1 (le_n _) S1) | split; [exact S1 | discriminate]].
      + (* --lc, carry on *)
        split; [exact S1|]. intros _. split; [apply live_inv; (assumption || lia) | left; cbn [ls_lc]; lia].
  Qed.

  Lemma step_ok_lstep maxloop st st' : (ls_lc st <= maxloop)%nat -> step_ok maxloop st st' ->
    lstep (N.of_nat maxloop) (mklst (mu st) (N.of_nat (ls_lc st))) (step_obs st st')
    = Some (mklst (mu st') (N.of_nat (if live st' then ls_lc st' else ls_lc st))).
  Proof.
    intros Hlc [Hmu Hl]. rewrite lstep_admits; unfold step_obs, mu; cbn [o_mu o_lc o_reset o_live l_mu l_lc]; fold (mun st) (mun st').
    - destruct (live st'); reflexivity.
    - lia.
    - intros Ev. destruct (Hl Ev) as [(_ & _ & _ & Hlc' & _) [Hc|[Hc Hlt]]].
      + left. lia.
      + right. lia.
  Qed.

  Theorem loop_obs_accepted positioning maxloop rules : forall fuel st, Inv maxloop st ->
    laccept (N.of_nat maxloop) (mklst (mu st) (N.of_nat (ls_lc st))) (loop_obs adv positioning maxloop rules fuel st) = true.
  Proof.
    induction fuel as [|f IH]; intros st HI; cbn [loop_obs]; [reflexivity|].
    destruct (ls_s st) as [i|] eqn:Es; [|reflexivity]. cbn [laccept].
    pose proof (loop_step_spec positioning rules HI Es) as Hs. destruct HI as (_ & _ & _ & [_ Hlc] & _).
    set (st' := loop_step adv positioning maxloop rules st) in *. rewrite (step_ok_lstep Hlc Hs).
    unfold step_obs at 1. destruct (live st') eqn:Ev; [exact (IH _ (proj1 (proj2 Hs Ev)))|].
    destruct f as [|f']; cbn [loop_obs]; [reflexivity|]. unfold live in Ev. destruct (ls_s st'); [discriminate Ev|reflexivity].
  Qed.

  Lemma loop_obs_short positioning maxloop rules : forall fuel st,
    (length (loop_obs adv positioning maxloop rules fuel st) < fuel)%nat -> ls_s (loop_run adv positioning maxloop rules fuel st) = None.
  Proof.
    induction fuel as [|f IH]; intros st H; cbn [loop_obs loop_run] in *; [lia|].
    destruct (ls_s st) as [i|] eqn:Es; [|exact Es]. cbn [length] in H. apply IH. lia.
  Qed.

  Lemma st_init_inv maxloop l n : (1 <= maxloop)%nat -> l <> [] -> Inv maxloop (st_init maxloop l (Some n)).
  Proof. intros Hml Hl. apply reset_inv; [exact Hml | discriminate | destruct l; [contradiction | cbn; lia]]. Qed.

  Theorem loop_obs_length positioning maxloop rules fuel st : Inv maxloop st ->
    (length (loop_obs adv positioning maxloop rules fuel st) <= maxloop * mun st + ls_lc st)%nat.
  Proof.
    intros HI. assert (Hok : lc_ok (N.of_nat maxloop) (mklst (mu st) (N.of_nat (ls_lc st)))) by (destruct HI as (_ & _ & _ & Hlc & _); unfold lc_ok; cbn [l_lc]; lia).
    pose proof (loop_bounded Hok (loop_obs_accepted positioning rules fuel HI)) as H.
    unfold phi, mu in H. cbn [l_mu l_lc] in H. fold (mun st) in H. lia.
  Qed.
  Theorem loop_iterations_bounded positioning maxloop rules l n fuel : (1 <= maxloop)%nat -> l <> [] ->
    (length (loop_obs adv positioning maxloop rules fuel (st_init maxloop l (Some n))) <= maxloop * (length l + a_bud n + 1))%nat.
  Proof.
    intros Hml Hl. pose proof (loop_obs_length positioning rules fuel (st_init_inv n Hml Hl)) as H.
    unfold mun, sfh in H. cbn [st_init ls_l ls_hw ls_b ls_lc bud] in H. nia.
  Qed.

  (* a pass never runs out of fuel: the final state of run_pass_b is one the loop really stops in *)
  Theorem pass_terminates positioning maxloop rules l n : (1 <= maxloop)%nat -> l <> [] ->
    ls_s (loop_run adv positioning maxloop rules (pass_fuel_b maxloop l (Some n)) (st_init maxloop l (Some n))) = None.
  Proof.
    intros Hml Hl. apply loop_obs_short. pose proof (loop_iterations_bounded positioning rules n (pass_fuel_b maxloop l (Some n)) Hml Hl).
    unfold pass_fuel_b in *. lia.
  Qed.

  Lemma loop_step_pos_length maxloop rules st : length (ls_l (loop_step adv true maxloop rules st)) = length (ls_l st).
  Proof.
    unfold loop_step. destruct (ls_s st) as [i|]; [|reflexivity].
    set (t := match select rules (ls_l st) i 0 None with Some _ => _ | None => _ end).
    assert (Ht : let '(l1, _, _, _, _, _) := t in length l1 = length (ls_l st)).
    { subst t. destruct (select rules (ls_l st) i 0 None) as [[kr r]|]; [|reflexivity].
      destruct (do_items_pos adv r _ (i - r_pre r) (r_pre r) (r_sort r - r_pre r) (r_acts r) (ls_l st) (ls_hw st) false) as [[l' hw'] hp'] eqn:Ed.
      apply do_items_pos_spec in Ed. destruct (adjust l' (r_ret r) _ hw' hp'). exact (proj1 Ed). }
    destruct t as [[[[[l1 s1] hw1] hp1] b1] dead].
    destruct dead; [exact Ht|]. destruct s1 as [k|]; [|exact Ht].
    destruct (oeq hw1 k || hp1); [exact Ht|]. destruct (Nat.eqb (ls_lc st - 1) 0); [destruct hw1|]; exact Ht.
  Qed.
  Lemma loop_run_pos_length maxloop rules : forall fuel st, length (ls_l (loop_run adv true maxloop rules fuel st)) = length (ls_l st).
  Proof.
    induction fuel as [|f IH]; intros st; cbn [loop_run]; [reflexivity|].
    destruct (ls_s st); [|reflexivity]. rewrite IH. apply loop_step_pos_length.
  Qed.

  Lemma run_passes_b_cap : forall passes k nsubst maxsize l b out, (length l <= maxsize)%nat ->
    run_passes_b adv k nsubst maxsize passes l b = Some out -> (length out <= maxsize)%nat.
  Proof.
    induction passes as [|[ml p] rest IH]; intros k nsubst maxsize l b out Hl H; cbn [run_passes_b] in H.
    - injection H as <-. exact Hl.
    - set (b0 := if Nat.eqb k nsubst then _ else b) in H.
      destruct (run_pass_b adv (Nat.leb nsubst k) (Nat.max 1 ml) p l b0) as [[l' b']|] eqn:Ep; [|discriminate].
      destruct (Nat.ltb_spec k nsubst) as [Hk|Hk]; cbn [andb] in H.
      + destruct (Nat.ltb_spec maxsize (length l')); [discriminate|]. eapply IH; [|exact H]. lia.
      + eapply IH; [|exact H].
        assert (Eb : Nat.leb nsubst k = true) by (apply Nat.leb_le; lia). rewrite Eb in Ep.
        unfold run_pass_b in Ep. destruct l as [|x l0]; [injection Ep as <- <-; exact Hl|].
        destruct (ls_dead _); [discriminate|].
        injection Ep as <- <-. rewrite loop_run_pos_length. exact Hl.
  Qed.

  (* termination of the simple pass: each step shortens the part of the stream that lies after the cursor *)
  Lemma fire_progress r l i l' i' : rule_matches r l i = true -> fire adv r l i = (l', i') ->
    (i' <= length l')%nat /\ (length l' - i' < length l - i)%nat.
  Proof.
    unfold fire. intros Hm E. apply rule_matches_bounds in Hm.
    destruct (do_items adv r _ _ _ _ _ l i None false None) as [[[[[la pa] ha] hpa] ba] da] eqn:Ed. injection E as <- <-.
    destruct (do_items_spec Ed ltac:(lia)) as [[D1 D2] _]. specialize (D1 (D2 eq_refl)). lia.
  Qed.
  Theorem run_pass_fuel_enough positioning rules : forall extra fuel l i, (length l - i < fuel)%nat -> run_pass adv positioning (fuel + extra) rules l i = run_pass adv positioning fuel rules l i.
  Proof.
    induction fuel as [|f IH]; intros l i Hf; [lia|]. cbn [Nat.add run_pass].
    destruct (Nat.leb_spec (length l) i) as [Hle|Hgt]; [reflexivity|].
    destruct (select rules l i 0 None) as [[kr r]|] eqn:E.
    - destruct (select_sound E) as [_ [Hm _]]. destruct positioning.
      + destruct (fire_pos adv r l i) as [l' i'] eqn:Ef. destruct (fire_pos_progress Hm Ef) as [_ Hp]. apply IH. lia.
      + destruct (fire adv r l i) as [l' i'] eqn:Ef. destruct (fire_progress Hm Ef) as [_ Hp]. apply IH. lia.
    - apply IH. lia.
  Qed.
End LoopBridge.
