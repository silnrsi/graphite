(* Proofs/FsmOrder.v — the rule list Pass::runFSM hands to findNDoRule is in precedence order (longer sort key first, then the earlier
   rule; no rule is preceded by one of lower precedence, and a rule that a state's range of the rule map names twice stays twice, next to
   itself), and holds only rules of the success states the machine went through: so the first rule of the list whose constraint holds is
   the highest-precedence applicable rule among those the machine found. *)
From GR Require Import Model.FsmModel Proofs.FsmProofs.
From Coq Require Import NArith List Lia ZifyBool Bool Sorted.
Import ListNotations.
Local Open Scope N_scope.

Section Order.
  Variable srt : list N.
  Notation lt := (rule_lt srt).
  Definition key (a : N) : N := nth (N.to_nat a) srt 0.

  Lemma lt_spec a b : lt a b = true <-> (key b < key a \/ (key a = key b /\ a < b)).
  Proof. unfold rule_lt, key. lia. Qed.
  Lemma lt_total a b : lt a b = false -> lt b a = false -> a = b.
  Proof. rewrite <- !not_true_iff_false, !lt_spec. lia. Qed.

  (* equal entries (the same rule twice in a state's range of the rule map) stay next to each other: sorted up to repetition *)
  Definition leP (a b : N) : Prop := lt b a = false.
  Definition wsorted (l : list N) : Prop := Sorted leP l.
  Lemma le_of_lt a b : lt a b = true -> leP a b.
  Proof. unfold leP. rewrite <- not_true_iff_false, !lt_spec. lia. Qed.
  Lemma le_trans a b c : leP a b -> leP b c -> leP a c.
  Proof. unfold leP. rewrite <- !not_true_iff_false, !lt_spec. lia. Qed.
  (* the lists are built at the head, so sortedness is carried as the local [Sorted]; transitivity makes it StronglySorted at the end *)
  Lemma wsorted_strong l : wsorted l -> StronglySorted leP l.
  Proof. apply Sorted_StronglySorted. exact le_trans. Qed.

  Lemma forall_le_trans a b l : leP a b -> Forall (leP b) l -> Forall (leP a) l.
  Proof. intros H F. rewrite Forall_forall in *. intros x Hx. eapply le_trans; [exact H | apply F; exact Hx]. Qed.

  Lemma hd_insert a b l : leP b a -> HdRel leP b l -> HdRel leP b (insert_rule srt a l).
  Proof. intros Hba Hl. destruct l as [|c r]; cbn [insert_rule]; [|destruct (lt c a)]; constructor; try assumption. exact (HdRel_inv Hl). Qed.
  Lemma insert_wsorted a : forall l, wsorted l -> wsorted (insert_rule srt a l).
  Proof.
    unfold wsorted. induction l as [|b r IH]; intros S; cbn [insert_rule]; [repeat constructor|].
    destruct (Sorted_inv S) as [Sr Hb]. destruct (lt b a) eqn:E; constructor; auto.
    apply hd_insert; [apply le_of_lt; exact E | exact Hb].
  Qed.
  Lemma sort_in l x : In x (sort_rules srt l) <-> In x l.
  Proof. apply sort_rules_in. Qed.
  Lemma sort_wsorted l : wsorted (sort_rules srt l).
  Proof. unfold sort_rules. induction l as [|a r IH]; cbn [fold_right]; [constructor | apply insert_wsorted; exact IH]. Qed.

  Lemma hd_merge x : forall l r, HdRel leP x l -> HdRel leP x r -> HdRel leP x (merge_rules srt l r).
  Proof.
    intros [|a l] [|b r] Hl Hr; try assumption. rewrite merge_cons. apply HdRel_inv in Hl, Hr.
    destruct (lt a b); [|destruct (lt b a)]; constructor; assumption.
  Qed.
  Lemma merge_wsorted : forall l r, wsorted l -> wsorted r -> wsorted (merge_rules srt l r).
  Proof.
    unfold wsorted. induction l as [|a l IHl]; intros r Sl Sr; [rewrite merge_nil_l; exact Sr|]. induction r as [|b r IHr]; [exact Sl|].
    destruct (Sorted_inv Sl) as [Sl' Ha], (Sorted_inv Sr) as [Sr' Hb]. rewrite merge_cons.
    destruct (lt a b) eqn:E1; [|destruct (lt b a) eqn:E2]; constructor; auto; apply hd_merge; try assumption.
    - constructor. apply le_of_lt. exact E1.
    - constructor. apply le_of_lt. exact E2.
    - rewrite (lt_total _ _ E1 E2). exact Hb.
  Qed.

  Lemma firstn_wsorted n : forall l, wsorted l -> wsorted (firstn n l).
  Proof.
    induction n as [|n IH]; intros [|a l] S; cbn [firstn]; try constructor; destruct (Sorted_inv S) as [S' Ha].
    - apply IH. exact S'.
    - destruct n, l; cbn [firstn]; constructor. exact (HdRel_inv Ha).
  Qed.
  Lemma take_wsorted l : wsorted l -> wsorted (take_rules l).
  Proof. apply firstn_wsorted. Qed.
  Lemma accumulate_wsorted cur st : wsorted cur -> wsorted st -> wsorted (accumulate srt cur st).
  Proof. intros Sc Ss. unfold accumulate. destruct st as [|b st]; [exact Sc|]. apply take_wsorted. apply merge_wsorted; assumption. Qed.
End Order.

Definition states_sorted (f : fsm) : Prop := Forall (wsorted (f_sort f)) (f_rules f).

Lemma read_fsm_sorted {t f} : read_fsm t = FOk f -> states_sorted f.
Proof. intros H. apply (read_fsm_tables (wsorted (f_sort f)) t f H); [constructor|]. intros mine _. apply take_wsorted, sort_wsorted. Qed.

Theorem run_fsm_rules_in_precedence_order {f ctx gids ok n rs} : states_sorted f -> run_fsm f ctx gids = Some (ok, n, rs) ->
  StronglySorted (leP (f_sort f)) rs /\ (forall x, In x rs -> exists sr, In sr (f_rules f) /\ In x sr).
Proof.
  intros SS H. unfold states_sorted in SS. rewrite Forall_forall in SS.
  set (Q rs := wsorted (f_sort f) rs /\ forall x, In x rs -> exists sr, In sr (f_rules f) /\ In x sr).
  enough (R : Q rs) by (split; [apply wsorted_strong|]; apply R).
  apply (run_fsm_rules Q H); [split; [constructor | intros x []]|].
  intros cur sr [Sc Pc] Hs. split; [apply accumulate_wsorted; auto|].
  intros x Hx. apply accumulate_in in Hx. destruct Hx as [Hx|Hx]; [exact (Pc x Hx) | exists sr; auto].
Qed.
