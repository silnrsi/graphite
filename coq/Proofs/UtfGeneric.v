(* Proofs/UtfGeneric.v — facts about count_unicode_chars / process_utf_data that hold for any codec whose
   get/validate/put satisfy a small interface (the hypotheses of Section Generic), which UtfProofs.v proves of UTF-8/16/32 *)
From GR Require Import Base.Bytes Model.UtfModel.
Local Open Scope N_scope.

Lemma skipn_app_le {A} k (a b : list A) : (k <= length a)%nat -> skipn k (a ++ b) = skipn k a ++ b.
Proof. intros H. rewrite skipn_app. replace (k - length a)%nat with 0%nat by lia. reflexivity. Qed.

Lemma skipn_exact {A} (a b : list A) : skipn (length a) (a ++ b) = b.
Proof. rewrite skipn_app, skipn_all, Nat.sub_diag. reflexivity. Qed.

Lemma length_skipn_lt {A} k (m : list A) : (1 <= k)%nat -> m <> [] -> (length (skipn k m) < length m)%nat.
Proof. rewrite skipn_length. destruct m; [congruence|cbn [length]; lia]. Qed.

Section Bases.
  Variable put : N -> units.
  (* the offset at which each character of a canonical text starts (the char-info's base) *)
  Fixpoint bases (pos : nat) (us : list N) : list nat :=
    match us with [] => [] | u :: us' => pos :: bases (pos + length (put u)) us' end.

  Lemma map_fst_combine_bases pos us : map fst (combine us (bases pos us)) = us.
  Proof.
    revert pos. induction us as [|u us IH]; intros pos; cbn [bases combine map]; [reflexivity|].
    rewrite IH. reflexivity.
  Qed.
End Bases.

Section Generic.
  Variable get : units -> option got.
  Variable validate : units -> bool.
  Variable put : N -> units.
  Variable valid : N -> Prop.

  Hypothesis get_len : forall m g, get m = Some g -> (1 <= g_len g <= length m)%nat.
  (* a get that would read past the end means the region ends in a truncated sequence *)
  Hypothesis get_none_validate : forall p m, m <> [] -> get m = None -> validate (p ++ m) = false.
  (* in front of a NUL unit get never traps and never swallows the NUL as part of a longer sequence *)
  Hypothesis get_nul : forall t rest, t <> [] -> exists g, get (t ++ 0 :: rest) = Some g /\ (g_len g <= length t)%nat.
  Hypothesis get_nul_zero : forall rest, get (0 :: rest) = Some (mkgot 0 1 true).
  Hypothesis get_put : forall u rest, valid u -> get (put u ++ rest) = Some (mkgot u (length (put u)) true).
  Hypothesis validate_put : forall p u, valid u -> validate (p ++ put u) = true.
  Hypothesis validate_nil : validate [] = true.

  (* what the two counting loops share: an iteration decodes one character, stops at an error or at a NUL, else steps over it *)
  Definition count_step (loop : nat -> units -> nat -> nat -> option cres) : Prop := forall fuel m pos n g, get m = Some g ->
    loop (S fuel) m pos n =
    if negb (g_ok g) then Some (n, Some pos) else if g_usv g =? 0 then Some (n, None)
    else loop fuel (skipn (g_len g) m) (pos + g_len g)%nat (S n).

  Lemma count_loop_step : count_step (count_loop get).
  Proof. intros fuel m pos n g E. cbn [count_loop]. rewrite E. destruct m; [apply get_len in E; cbn in E; lia|reflexivity]. Qed.

  Lemma count_nul_loop_step : count_step (count_nul_loop get).
  Proof. intros fuel m pos n g E. cbn [count_nul_loop]. rewrite E. reflexivity. Qed.

  Lemma count_loop_no_oob fuel : forall p m pos n, validate (p ++ m) = true -> count_loop get fuel m pos n <> None.
  Proof.
    induction fuel as [|fuel IH]; intros p m pos n Hv; cbn [count_loop]; [discriminate|].
    destruct m as [|b r]; [discriminate|].
    destruct (get (b :: r)) as [g|] eqn:Eg.
    - destruct (negb (g_ok g)); [discriminate|]. destruct (g_usv g =? 0); [discriminate|].
      apply (IH (p ++ firstn (g_len g) (b :: r))).
      rewrite <- app_assoc, firstn_skipn. exact Hv.
    - rewrite (get_none_validate p (b :: r)) in Hv by (try discriminate; exact Eg). discriminate.
  Qed.

  Theorem count_end_no_oob m : count_end get validate m <> None.
  Proof.
    unfold count_end. destruct (validate m) eqn:Ev; cbn [negb]; [|discriminate].
    apply (count_loop_no_oob _ []). exact Ev.
  Qed.

  Lemma count_loop_err_inside fuel : forall m pos n c e,
    count_loop get fuel m pos n = Some (c, Some e) -> (pos <= e < pos + length m)%nat.
  Proof.
    induction fuel as [|fuel IH]; intros m pos n c e H; cbn [count_loop] in H; [discriminate|].
    destruct m as [|b r]; [discriminate|].
    destruct (get (b :: r)) as [g|] eqn:Eg; [|discriminate].
    destruct (negb (g_ok g)).
    - inversion H; subst. cbn [length]. lia.
    - destruct (g_usv g =? 0); [discriminate|].
      apply IH in H. pose proof (get_len _ _ Eg) as Hl. rewrite skipn_length in H. lia.
  Qed.

  Theorem count_end_err_inside m c e : count_end get validate m = Some (c, Some e) -> (e < length m)%nat.
  Proof.
    unfold count_end. destruct (validate m) eqn:Ev; cbn [negb].
    - intros H. apply count_loop_err_inside in H. lia.
    - intros H. inversion H; subst. destruct m; [rewrite validate_nil in Ev; discriminate|cbn [length]; lia].
  Qed.

  Lemma count_nul_loop_no_oob fuel : forall t pos n, (length t < fuel)%nat ->
    count_nul_loop get fuel (t ++ [0]) pos n <> None.
  Proof.
    induction fuel as [|fuel IH]; intros t pos n Hf; [lia|].
    destruct t as [|b r]; [cbn [app]; erewrite count_nul_loop_step by apply get_nul_zero; discriminate|].
    destruct (get_nul (b :: r) [] ltac:(discriminate)) as (g & Eg & Hl). pose proof (get_len _ _ Eg) as Hl1.
    erewrite count_nul_loop_step by exact Eg.
    destruct (negb (g_ok g)); [discriminate|]. destruct (g_usv g =? 0); [discriminate|].
    rewrite skipn_app_le by exact Hl. apply IH. rewrite skipn_length. lia.
  Qed.

  Theorem count_nul_no_oob t : count_nul get (t ++ [0]) <> None.
  Proof. apply count_nul_loop_no_oob. rewrite app_length. lia. Qed.

  Definition text (us : list N) : Prop := Forall (fun u => valid u /\ u <> 0) us.

  Lemma put_len u : valid u -> (1 <= length (put u))%nat.
  Proof. intros H. apply (get_len _ _ (get_put u [] H)). Qed.

  Lemma enc_all_cons u us : enc_all put (u :: us) = put u ++ enc_all put us.
  Proof. reflexivity. Qed.

  Lemma enc_all_length us : text us -> (length us <= length (enc_all put us))%nat.
  Proof.
    induction 1 as [|u us [Hu _] _ IH]; [cbn; lia|].
    rewrite enc_all_cons, app_length. pose proof (put_len u Hu). cbn [length]. lia.
  Qed.

  (* either loop, given fuel for them, walks over the characters of a canonical text one by one *)
  Section Walk.
    Variable loop : nat -> units -> nat -> nat -> option cres.
    Hypothesis loop_step : count_step loop.

    Lemma loop_text us : forall fuel tail pos n, text us ->
      loop (length us + fuel) (enc_all put us ++ tail) pos n = loop fuel tail (pos + length (enc_all put us)) (n + length us).
    Proof.
      induction us as [|u us IH]; intros fuel tail pos n Hus; [cbn; rewrite !Nat.add_0_r; reflexivity|].
      inversion Hus as [|? ? [Hu Hnz%N.eqb_neq] Hus']; subst.
      rewrite enc_all_cons, <- app_assoc. cbn [length Nat.add]. erewrite loop_step by (apply get_put; exact Hu). cbn [g_ok g_usv g_len negb].
      rewrite Hnz, skipn_exact, IH, app_length by exact Hus'. f_equal; lia.
    Qed.
  End Walk.

  Lemma validate_enc_all us : text us -> validate (enc_all put us) = true.
  Proof.
    intros H. destruct us as [|u us] using rev_ind; [exact validate_nil|].
    unfold enc_all. rewrite map_app, concat_app. cbn [map concat]. rewrite app_nil_r.
    apply validate_put. apply Forall_app in H. destruct H as [_ H]. inversion H as [|? ? [Hu _] _]; exact Hu.
  Qed.

  (* on a canonical text followed by tail, count_end arrives at tail with fuel left: then it reports the end, or the first
     ill-formed sequence at its position, and the count is the number of characters before it *)
  Lemma count_end_text us tail : text us -> validate (enc_all put us ++ tail) = true ->
    exists fuel, count_end get validate (enc_all put us ++ tail) =
                 count_loop get (S fuel) tail (length (enc_all put us)) (length us).
  Proof.
    intros H Hv. exists (length (enc_all put us ++ tail) - length us)%nat. unfold count_end. rewrite Hv.
    pose proof (enc_all_length us H) as Hlen. rewrite app_length in *.
    replace (S (length (enc_all put us) + length tail)) with (length us + S (length (enc_all put us) + length tail - length us))%nat by lia.
    apply (loop_text _ count_loop_step). exact H.
  Qed.

  Theorem count_end_exact us : text us -> count_end get validate (enc_all put us) = Some (length us, None).
  Proof.
    intros H. destruct (count_end_text us [] H) as [fuel E]; [rewrite app_nil_r; exact (validate_enc_all us H)|].
    rewrite app_nil_r in E. exact E.
  Qed.

  Theorem count_end_error us bad g : text us ->
    get bad = Some g -> g_ok g = false -> validate (enc_all put us ++ bad) = true ->
    count_end get validate (enc_all put us ++ bad) = Some (length us, Some (length (enc_all put us))).
  Proof. intros H Hg Hok Hv. destruct (count_end_text us bad H Hv) as [fuel ->]. erewrite count_loop_step by exact Hg. rewrite Hok. reflexivity. Qed.

  Theorem count_nul_exact us rest : text us -> count_nul get (enc_all put us ++ 0 :: rest) = Some (length us, None).
  Proof.
    intros H. unfold count_nul. pose proof (enc_all_length us H) as Hlen. rewrite app_length. cbn [length].
    replace (S (length (enc_all put us) + S (length rest))) with (length us + S (S (length (enc_all put us) + length rest - length us)))%nat by lia.
    rewrite (loop_text _ count_nul_loop_step) by exact H. erewrite count_nul_loop_step by apply get_nul_zero. reflexivity.
  Qed.

  (* process_utf_data: the text in front of the terminator decodes to some list of at most as many char-infos as units;
     nChars = n cuts it off after n *)
  Theorem read_text_stops_at_nul t : forall pos, exists l, (length l <= length t)%nat /\
    forall n, read_text get n (t ++ [0]) pos = Some (firstn n l).
  Proof.
    induction t as [t IH] using (induction_ltof1 _ (@length N)). unfold ltof in IH. intros pos.
    destruct t as [|b r].
    { exists []. split; [cbn; lia|]. intros [|n]; cbn [read_text app]; rewrite ?get_nul_zero; reflexivity. }
    destruct (get_nul (b :: r) [] ltac:(discriminate)) as (g & Eg & Hl). pose proof (get_len _ _ Eg) as Hl1.
    destruct (g_usv g =? 0) eqn:Ez.
    - exists []. split; [cbn; lia|]. intros [|n]; cbn [read_text]; rewrite ?Eg, ?Ez; reflexivity.
    - destruct (IH (skipn (g_len g) (b :: r))) with (pos := (pos + g_len g)%nat) as (l & Hll & Hl');
        [rewrite skipn_length; cbn [length]; lia|].
      rewrite skipn_length in Hll. exists ((g_usv g, pos) :: l). split; [cbn [length] in *; lia|].
      intros [|n]; [reflexivity|]. cbn [read_text]. rewrite Eg, Ez, skipn_app_le, Hl' by exact Hl. reflexivity.
  Qed.

  Theorem read_text_exact : forall us n pos rest, text us ->
    read_text get n (enc_all put us ++ 0 :: rest) pos = Some (firstn n (combine us (bases put pos us))).
  Proof.
    induction us as [|u us IH]; intros n pos rest Hus.
    - cbn [enc_all map concat app combine].
      destruct n; cbn [read_text]; [reflexivity|]. rewrite get_nul_zero. reflexivity.
    - inversion Hus as [|? ? [Hu Hnz%N.eqb_neq] Hus']; subst.
      destruct n as [|n]; [reflexivity|].
      rewrite enc_all_cons, <- app_assoc. cbn [read_text]. rewrite get_put by exact Hu. cbn [g_usv g_len].
      rewrite Hnz, skipn_exact, IH by exact Hus'. reflexivity.
  Qed.
End Generic.

Arguments count_end_no_oob {get validate}.
Arguments count_end_err_inside {get validate}.
Arguments count_nul_no_oob {get}.
Arguments count_end_exact {get validate put valid}.
Arguments count_end_error {get validate put valid}.
Arguments count_nul_exact {get put valid}.
Arguments read_text_stops_at_nul {get}.
Arguments read_text_exact {get put valid}.
