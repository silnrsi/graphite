(* Proofs/LinePtrProofs.v — the statement-by-statement transcription of Segment::reverseSlots (Model/LinePtrModel.v), run on a well-formed
   chain without marks whose ends are m_first and m_last (the precondition that Segment::justify breaks in the recorded defects), reverses
   exactly that chain: the links of the chain afterwards are those of the reversed list, m_first / m_last are swapped, and the links of
   every slot outside the chain are untouched. *)
From GR Require Import Base.Bytes Model.LinePtrModel.

Lemma getp_setp_same l i v : (i < length l)%nat -> getp (setp l i v) i = v.
Proof. revert i. induction l as [|x l IH]; intros [|i] H; cbn in *; try lia; [reflexivity|]. apply IH. lia. Qed.
Lemma getp_setp_other l i j v : i <> j -> getp (setp l i v) j = getp l j.
Proof. revert i j. induction l as [|x l IH]; intros [|i] [|j] H; cbn; try reflexivity; try lia. apply IH. lia. Qed.
Lemma setp_length l i v : length (setp l i v) = length l.
Proof. revert i. induction l as [|x l IH]; intros [|i]; cbn; try reflexivity. rewrite IH. reflexivity. Qed.
Lemma getp_grow l e i : getp (grow l e) i = getp l i.
Proof.
  unfold grow, getp. destruct (Nat.lt_ge_cases i (length l)) as [H|H].
  - apply app_nth1. exact H.
  - rewrite app_nth2 by exact H. rewrite (nth_overflow l None H). apply nth_repeat.
Qed.
Lemma grow_length l e : length (grow l e) = Nat.max (length l) (S e).
Proof. unfold grow. rewrite app_length, repeat_length. lia. Qed.

(* [autorewrite with ptr] pushes every read of a link array through the writes before it whose index it can tell from its own *)
#[export] Hint Rewrite getp_setp_same getp_setp_other using (rewrite ?setp_length, ?grow_length; lia) : ptr.
#[export] Hint Rewrite getp_grow : ptr.

Fixpoint links_fwd (nx pv : list ptr) (l : list nat) (before : ptr) : Prop :=      (* l is a next-chain with consistent prev links *)
  match l with
  | [] => True
  | a :: r => getp pv a = before /\ getp nx a = hd_error r /\ links_fwd nx pv r (Some a)
  end.

Lemma links_fwd_ext nx pv nx' pv' l before : (forall a, In a l -> getp nx' a = getp nx a /\ getp pv' a = getp pv a) ->
  links_fwd nx pv l before -> links_fwd nx' pv' l before.
Proof.
  revert before. induction l as [|a r IH]; intros before He H; cbn in *; [exact I|].
  destruct H as (H1 & H2 & H3). destruct (He a (or_introl eq_refl)) as [E1 E2]. rewrite E1, E2.
  repeat split; try assumption. apply IH; [intros b Hb; apply He; right; exact Hb|exact H3].
Qed.
Lemma links_fwd_set_next nx pv l before i v : ~ In i l -> links_fwd nx pv l before -> links_fwd (setp nx i v) pv l before.
Proof. intros Hi. apply links_fwd_ext. intros a Ha. rewrite getp_setp_other; [split; reflexivity|]. intros ->. contradiction. Qed.
Lemma links_fwd_set_prev nx pv l before i v : ~ In i l -> links_fwd nx pv l before -> links_fwd nx (setp pv i v) l before.
Proof. intros Hi. apply links_fwd_ext. intros a Ha. rewrite getp_setp_other; [split; reflexivity|]. intros ->. contradiction. Qed.

Lemma mid_facts {A} {xs : list A} {a ys l} : xs ++ a :: ys = l -> NoDup l -> In a l /\ ~ In a xs /\ ~ In a ys.
Proof. intros <- H. split; [apply in_elt|]. apply NoDup_remove_2 in H. split; intros X; apply H, in_or_app; auto. Qed.

Definition unmarked (marks : list bool) (l : list nat) : Prop := forall a, In a l -> is_mark marks a = false.

(* The loop without marks is pointer reversal: [done = d1 :: rest] is the part already reversed (most recent first), [todo] what is
   left, and [rev done ++ todo] is the chain [l] all along, so what is known of [l] need not be carried through.  [done] is a chain
   but for the prev link of its head ([links_done]); a round writes that link and next(c), and neither slot is in the rest of
   [todo] or [done].  The first round, which has no [out] yet, is taken in the theorem below. *)
Definition links_done (nx pv : list ptr) (done : list nat) : Prop :=
  match done with [] => True | d1 :: rest => getp nx d1 = hd_error rest /\ links_fwd nx pv rest (Some d1) end.
Lemma rev_loop_chain marks last l : NoDup l -> forall todo fuel d1 rest nx pv tlast b,
  rev (d1 :: rest) ++ todo = l -> (forall a, In a l -> a < length nx /\ a < length pv)%nat -> unmarked marks todo ->
  (length todo < fuel)%nat -> links_fwd nx pv todo b -> links_done nx pv (d1 :: rest) ->
  exists nx' pv', rev_loop fuel marks last nx pv (hd_error todo) (Some d1) tlast = Some (Some (nx', pv', hd_error (rev todo ++ d1 :: rest), tlast))
    /\ links_done nx' pv' (rev todo ++ d1 :: rest) /\ length nx' = length nx /\ length pv' = length pv
    /\ (forall a, ~ In a l -> getp nx' a = getp nx a /\ getp pv' a = getp pv a).
Proof.
  intros Hnd. induction todo as [|c r IH]; intros fuel d1 rest nx pv tlast b Hl Hlt Hum Hf Hc Hr; (destruct fuel as [|f]; [cbn in Hf; lia|]).
  - exists nx, pv. repeat split; apply Hr.
  - cbn [rev_loop hd_error]. rewrite (Hum c (or_introl eq_refl)). destruct Hc as (_ & Hnc & Hlr). rewrite Hnc. destruct Hr as [Hr1 Hr2].
    destruct (mid_facts Hl Hnd) as (Hcl & Hcd & Hcr). rewrite <- in_rev in Hcd.
    cbn [rev] in Hl. rewrite <- app_assoc in Hl. destruct (mid_facts Hl Hnd) as (Hd1l & Hdr & Hdcr). rewrite <- in_rev in Hdr.
    assert (Hd1c : d1 <> c) by (intros ->; apply Hdcr; left; reflexivity).
    destruct (IH f c (d1 :: rest) (setp nx c (Some d1)) (setp pv d1 (Some c)) tlast (Some c)) as (nx' & pv' & E & R' & L1 & L2 & Hout).
    + cbn [rev]. rewrite <- !app_assoc. exact Hl.
    + intros a Ha. rewrite !setp_length. exact (Hlt a Ha).
    + intros a Ha. apply Hum. right. exact Ha.
    + cbn in Hf. lia.
    + apply links_fwd_set_next, links_fwd_set_prev; [exact Hcr|intros X; apply Hdcr; right; exact X|exact Hlr].
    + split; [apply getp_setp_same, Hlt, Hcl|]. cbn [links_fwd]. rewrite getp_setp_same by apply Hlt, Hd1l. rewrite getp_setp_other by congruence.
      repeat split; [exact Hr1|]. apply links_fwd_set_next, links_fwd_set_prev; [intros X; apply Hcd; right; exact X|exact Hdr|exact Hr2].
    + exists nx', pv'. cbn [rev]. rewrite <- app_assoc. rewrite setp_length in L1, L2. repeat (split; [assumption|]).
      intros a Ha. destruct (Hout a Ha) as [-> ->]. rewrite !getp_setp_other; [split; reflexivity| |]; intros ->; contradiction.
Qed.

Lemma nodup_bounded_length (l : list nat) n : NoDup l -> (forall a, In a l -> a < n)%nat -> (length l <= n)%nat.
Proof.
  intros Hnd Hb. rewrite <- (seq_length n 0). apply NoDup_incl_length; [exact Hnd|].
  intros a Ha. apply in_seq. specialize (Hb a Ha). lia.
Qed.

Theorem preverse_reverses_chain marks s l :
  (2 <= length l)%nat -> NoDup l -> (forall a, In a l -> a < length (p_next s) /\ a < length (p_prev s))%nat -> unmarked marks l ->
  links_fwd (p_next s) (p_prev s) l None -> p_first s = hd_error l -> p_last s = hd_error (rev l) ->
  exists s', preverse marks s = POk s' /\ links_fwd (p_next s') (p_prev s') (rev l) None
             /\ p_first s' = hd_error (rev l) /\ p_last s' = hd_error l
             /\ (forall a, ~ In a l -> getp (p_next s') a = getp (p_next s) a /\ getp (p_prev s') a = getp (p_prev s) a)
             /\ length (p_next s') = length (p_next s) /\ length (p_prev s') = length (p_prev s).
Proof.
  intros Hlen Hnd Hb Hum Hl Hf Hla. destruct l as [|c0 r]; [cbn in Hlen; lia|].
  (* l = c0 :: mid ++ [o]: the last slot o heads the reversed chain *)
  destruct (exists_last (l := r)) as (mid & o & ->); [intros ->; cbn in Hlen; lia|].
  assert (Er : rev (c0 :: mid ++ [o]) = o :: rev mid ++ [c0]) by (cbn [rev]; rewrite rev_unit; reflexivity).
  pose proof (NoDup_rev Hnd) as Hnd'. rewrite Er in Hnd', Hla |- *. inversion Hnd' as [|? ? Hot _]. inversion Hnd as [|? ? Hc0 _].
  assert (Hol : In o (c0 :: mid ++ [o])) by (right; apply in_elt).
  assert (Hoc : c0 <> o) by (intros ->; apply Hot, in_elt).
  unfold preverse. rewrite Hf, Hla. cbn [hd_error peq]. rewrite (proj2 (Nat.eqb_neq c0 o) Hoc).
  cbn [skip_marks]. rewrite (Hum c0 (or_introl eq_refl)). destruct Hl as (Hp0 & Hn0 & Hlr). rewrite Hp0.
  (* the first round: next(c0) := null *)
  rewrite (Nat.add_comm _ 4). change (4 + ?n)%nat with (S (3 + n)). cbn [rev_loop]. rewrite (Hum c0 (or_introl eq_refl)), Hn0.
  destruct (rev_loop_chain marks (Some o) _ Hnd (mid ++ [o]) (3 + 2 * length (p_next s))%nat c0 [] (setp (p_next s) c0 None) (p_prev s) (Some c0) (Some c0) eq_refl)
    as (nx' & pv' & E & R' & L1 & L2 & Hout).
  - intros a Ha. rewrite setp_length. exact (Hb a Ha).
  - intros a Ha. apply Hum. right. exact Ha.
  - pose proof (nodup_bounded_length _ (length (p_next s)) Hnd (fun a Ha => proj1 (Hb a Ha))) as Hn. cbn [length] in Hn. lia.
  - apply links_fwd_set_next; [exact Hc0|exact Hlr].
  - split; [apply getp_setp_same, Hb; left; reflexivity|exact I].
  - rewrite E, rev_unit in *. destruct R' as [R1 R2]. rewrite setp_length in L1.
    eexists. split; [reflexivity|]. cbn [p_next p_prev p_first p_last]. rewrite setp_length.
    split; [|split; [reflexivity|split; [reflexivity|split; [|split; assumption]]]].
    + cbn [links_fwd]. rewrite getp_setp_same by (rewrite L2; apply Hb, Hol). repeat split; [exact R1|].
      apply links_fwd_set_prev; [exact Hot|exact R2].
    + intros a Ha. destruct (Hout a Ha) as [O1 O2]. rewrite O1, !getp_setp_other, O2; [split; reflexivity| |]; intros ->; apply Ha; [exact Hol|left; reflexivity].
Qed.

Corollary preverse_twice_restores marks s l :
  (2 <= length l)%nat -> NoDup l -> (forall a, In a l -> a < length (p_next s) /\ a < length (p_prev s))%nat -> unmarked marks l ->
  links_fwd (p_next s) (p_prev s) l None -> p_first s = hd_error l -> p_last s = hd_error (rev l) ->
  exists s' s'', preverse marks s = POk s' /\ preverse marks s' = POk s'' /\ links_fwd (p_next s'') (p_prev s'') l None
                 /\ p_first s'' = p_first s /\ p_last s'' = p_last s
                 /\ (forall a, ~ In a l -> getp (p_next s'') a = getp (p_next s) a /\ getp (p_prev s'') a = getp (p_prev s) a).
Proof.
  intros Hlen Hnd Hb Hum Hl Hf Hla.
  destruct (preverse_reverses_chain marks s l Hlen Hnd Hb Hum Hl Hf Hla) as (s' & E1 & L1 & F1 & La1 & O1 & N1 & P1).
  destruct (preverse_reverses_chain marks s' (rev l)) as (s'' & E2 & L2 & F2 & La2 & O2 & N2 & P2).
  - rewrite rev_length. exact Hlen.
  - apply NoDup_rev. exact Hnd.
  - intros a Ha. rewrite N1, P1. apply Hb. apply in_rev. exact Ha.
  - intros a Ha. apply Hum. apply in_rev. exact Ha.
  - exact L1.
  - exact F1.
  - rewrite rev_involutive. exact La1.
  - rewrite rev_involutive in *. exists s', s''. repeat (split; [assumption || congruence|]).
    intros a Ha. destruct (O1 a Ha) as [<- <-]. apply O2. rewrite <- in_rev. exact Ha.
Qed.

Lemma peq_neq {a e} : a <> Some e -> peq a (Some e) = false.
Proof. destruct a as [x|]; cbn; [|reflexivity]. destruct (Nat.eqb_spec x e); [subst; congruence | reflexivity]. Qed.
