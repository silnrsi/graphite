(* Proofs/PassProofs.v — Pass::readPass never reads outside the pass, whatever its bytes; every region it goes on to read lies inside,
   and an accepted pass has the layout the state-machine reader of Model/FsmModel.v relies on. *)
From GR Require Import Base.Mem Base.MemFacts Model.PassModel.
Local Open Scope Z_scope.

Section PassSafe.
  Variable t : mem.
  Hypothesis Hwf : mem_wf t.
  Let L := Z.of_N (tlen t).

  Definition inside (r : Z * Z) : Prop := 0 <= fst r /\ 0 <= snd r /\ fst r + snd r <= L.
  (* the header fields read_fsm reads again, and the end of the last array it reads (the transition table) *)
  Definition pass_layout : Prop :=
    (exists nr nst nt ns nc nrg lastg ne minp maxp,
       r16 t 4 = Some nr /\ r16 t 24 = Some nst /\ r16 t 26 = Some nt /\ r16 t 28 = Some ns /\ r16 t 30 = Some nc /\ r16 t 32 = Some nrg /\
       r16 t (40 + 6 * nrg - 4) = Some lastg /\ r16 t (40 + 6 * nrg + 2 * ns) = Some ne /\
       rdb t (40 + 6 * nrg + 2 * (ns + 1) + 2 * ne) = Some minp /\ rdb t (40 + 6 * nrg + 2 * (ns + 1) + 2 * ne + 1) = Some maxp /\
       40 + 6 * nrg + 2 * (ns + 1) + 2 * ne + 2 + 2 * (maxp - minp + 1) + 2 * nr + nr + 3 + 2 * (nr + 1) + 2 * (nr + 1) + 2 * (nt * nc) <= tlen t)%N.
  Definition ok (p : pres) : Prop :=
    match p with PTrap => False | PReject => True | PAccept rs => Forall inside rs /\ pass_layout end.

  Lemma ok_zrb o k : 0 <= o -> o + 1 <= L -> (forall v, 0 <= v -> rdb t (Z.to_N o) = Some (Z.to_N v) -> ok (k v)) ->
    ok (match zrb t o with Some v => k v | None => PTrap end).
  Proof.
    intros H0 H1 Hk. unfold zrb. destruct (Z.ltb_spec o 0); [lia|].
    destruct (rdb_some t (Z.to_N o) Hwf ltac:(lia)) as [v E]. rewrite E. apply Hk; [lia|rewrite N2Z.id; exact E].
  Qed.
  Lemma ok_zr16 o k : 0 <= o -> o + 2 <= L -> (forall v, 0 <= v -> r16 t (Z.to_N o) = Some (Z.to_N v) -> ok (k v)) ->
    ok (match zr16 t o with Some v => k v | None => PTrap end).
  Proof.
    intros H0 H1 Hk. unfold zr16. destruct (Z.ltb_spec o 0); [lia|].
    destruct (r16_some t (Z.to_N o) Hwf ltac:(lia)) as [v E]. rewrite E. apply Hk; [lia|rewrite N2Z.id; exact E].
  Qed.
  Lemma ok_zr32 o k : 0 <= o -> o + 4 <= L -> (forall v, 0 <= v -> r32 t (Z.to_N o) = Some (Z.to_N v) -> ok (k v)) ->
    ok (match zr32 t o with Some v => k v | None => PTrap end).
  Proof.
    intros H0 H1 Hk. unfold zr32. destruct (Z.ltb_spec o 0); [lia|].
    destruct (r32_some t (Z.to_N o) Hwf ltac:(lia)) as [v E]. rewrite E. apply Hk; [lia|rewrite N2Z.id; exact E].
  Qed.

  (* regions laid out one after another (gaps allowed) from p on, the last ending inside the table *)
  Fixpoint chain (p : Z) (rs : list (Z * Z)) : Prop :=
    match rs with [] => p <= L | r :: rs' => p <= fst r /\ 0 <= snd r /\ chain (fst r + snd r) rs' end.
  Lemma chain_le : forall rs p, chain p rs -> p <= L.
  Proof. induction rs as [|r rs IH]; intros p H; cbn [chain] in H; [exact H|]. destruct H as (H1 & H2 & H3). apply IH in H3. lia. Qed.
  Lemma chain_inside : forall rs p, 0 <= p -> chain p rs -> Forall inside rs.
  Proof.
    induction rs as [|r rs IH]; intros p Hp H; [constructor|]. destruct H as (H1 & H2 & H3).
    constructor; [unfold inside; apply chain_le in H3; lia|]. apply (IH (fst r + snd r)); [lia|exact H3].
  Qed.

  Lemma rule_regions_ok o_con o_act rc_data ac_data rc_data_end ac_data_end : pass_layout ->
    0 <= o_con -> 0 <= o_act -> 0 <= rc_data -> rc_data_end <= L -> 0 <= ac_data -> ac_data_end <= L ->
    forall n rc_end ac_end acc, Forall inside acc -> o_con + 2 * Z.of_nat n <= L -> o_act + 2 * Z.of_nat n <= L -> rc_data <= rc_end ->
    ok (rule_regions t n o_con o_act rc_data ac_data rc_data_end ac_data_end rc_end ac_end acc).
  Proof.
    intros HP Hc0 Ha0 Hr0 Hr1 Hd0 Hd1. induction n as [|k IH]; intros rc_end ac_end acc Hacc Hc1 Ha1 Hre; cbn [rule_regions ok]; [split; assumption|].
    apply ok_zr16; [lia|lia|intros oa Hoa _].
    apply ok_zr16; [lia|lia|intros oc Hoc _].
    (* a rule without constraint (oc = 0) has the empty code block at rc_end: hence rc_data <= rc_end is carried along *)
    set (rc_begin := if oc =? 0 then rc_end else rc_data + oc).
    assert (Hb : rc_data <= rc_begin) by (unfold rc_begin; destruct (oc =? 0); lia).
    destruct (_ || _) eqn:Ebad; [exact I|].
    apply IH; try lia.
    constructor; [unfold inside; cbn [fst snd]; lia|]. constructor; [unfold inside; cbn [fst snd]; lia|]. exact Hacc.
  Qed.

  Theorem read_pass_ok base coll_ok : ok (read_pass t base coll_ok).
  Proof.
    unfold read_pass. fold L. destruct (Z.ltb_spec L 40) as [|H40]; [exact I|].
    apply ok_zrb; [lia|lia|intros flags _ _].
    apply ok_zr16; [lia|lia|intros nr Hnr R1].
    apply ok_zr32; [lia|lia|intros pc32 _ _].
    apply ok_zr32; [lia|lia|intros rc32 _ _].
    apply ok_zr32; [lia|lia|intros ac32 _ _].
    apply ok_zr16; [lia|lia|intros nst Hnst R5].
    apply ok_zr16; [lia|lia|intros nt Hnt R6].
    apply ok_zr16; [lia|lia|intros ns Hns R7].
    apply ok_zr16; [lia|lia|intros nc Hnc R8].
    apply ok_zr16; [lia|lia|intros nrg Hnrg R9].
    destruct (negb coll_ok); [exact I|]. destruct (_ && _); [exact I|]. destruct (_ || _); [exact I|].
    destruct (Z.ltb_spec L (40 + nrg * 6 - 2)) as [|Hr]; [exact I|].
    (* the peek of the last range: inside the header when there are no ranges, inside the ranges otherwise *)
    apply ok_zr16; [lia|lia|intros lastg _ R10].
    destruct ((L <? 40 + 6 * nrg + 2 * ns) || (L <? 40 + 6 * nrg + 2 * (ns + 1))) eqn:Cm; [exact I|].
    apply ok_zr16; [lia|lia|intros ne Hne R11].
    set (p1 := 40 + 6 * nrg + 2 * (ns + 1) + 2 * ne).
    destruct (Z.ltb_spec L (p1 + 2)) as [|Hp1]; [exact I|].
    apply ok_zrb; [lia|lia|intros minp Hminp R12].
    apply ok_zrb; [lia|lia|intros maxp Hmaxp R13].
    destruct (Z.ltb_spec maxp minp) as [|Hmm]; [exact I|].
    set (p2 := p1 + 2 + 2 * (maxp - minp + 1) + 2 * nr + nr).
    destruct (Z.ltb_spec L (p2 + 3)) as [|Hp2]; [exact I|].
    apply ok_zr16; [lia|lia|intros pcl Hpcl _].
    set (st := p2 + 3 + 2 * (nr + 1) + 2 * (nr + 1)).
    destruct ((L <=? st) || (L - st <=? 2 * nt * nc)) eqn:Cs; [exact I|].
    set (p3 := st + 2 * nt * nc + 1).
    destruct (Z.eqb_spec p3 (pc32 - base)) as [Epc|]; cbn [negb]; [|exact I].
    destruct (negb (p3 + pcl =? rc32 - base) || negb (rc32 - base - (pc32 - base) =? pcl)) eqn:Crc; [exact I|].
    apply ok_zr16; [lia|lia|intros ct Hct _].
    destruct (Z.eqb_spec (p3 + pcl + ct) (ac32 - base)) as [Eac|]; cbn [negb]; [|exact I].
    apply ok_zr16; [lia|lia|intros at_ Hat _].
    destruct (Z.ltb_spec L (p3 + pcl + ct + at_)) as [|Hend]; [exact I|].
    match goal with |- ok (if _ then PAccept ?rs else _) => assert (Hfixed : Forall inside rs) end.
    { apply Forall_app. split.
      - destruct (0 <? pcl); repeat constructor; unfold inside; cbn [fst snd]; lia.
      - (* the cursor only moves forward, and the last block ends inside the pass *)
        apply (chain_inside _ 0); [lia|]. cbn [chain fst snd]. lia. }
    assert (HP : pass_layout).
    { exists (Z.to_N nr), (Z.to_N nst), (Z.to_N nt), (Z.to_N ns), (Z.to_N nc), (Z.to_N nrg), (Z.to_N lastg), (Z.to_N ne), (Z.to_N minp), (Z.to_N maxp).
      repeat split; try assumption.
      - rewrite <- R10. f_equal. lia.
      - rewrite <- R11. f_equal. lia.
      - rewrite <- R12. f_equal. lia.
      - rewrite <- R13. f_equal. lia.
      - rewrite <- (Z2N.inj_mul nt nc) by lia. lia. }
    destruct (Z.eqb_spec nr 0) as [Hz|Hnz].
    - split; assumption.
    - apply rule_regions_ok; try assumption; rewrite ?Z2Nat.id by lia; lia.
  Qed.
End PassSafe.
