(* Proofs/Lz4Complete.v — the block format's end-of-block margins ([margins]: at least MINCODA input bytes after every match header, at
   least LASTLITERALS literals in the last sequence) and what each outcome of the decoder's loop means in the terms of the reference
   decoder ([loop_outcome]: one induction, one walk through the stages of Proofs/Lz4Safe.v).  Only its Fail clause (the reference, within
   the margins, does not decode the block to exactly the room there is) assumes anything about the output array.  Proofs/Lz4Sound.v reads
   off it what holds of the whole decoder, completeness included (this file is "complete" as in the complete specification of the loop;
   it is where the format's margins are defined). *)
From GR Require Import Base.Bytes Model.Lz4Model Proofs.Lz4Safe.
Local Open Scope nat_scope.

(* the end-of-block margins of the LZ4 block format, along the reference parse *)
Fixpoint margins (fuel : nat) (s : list N) : bool :=
  match fuel, s with
  | S f, tok :: r1 =>
      match ref_length (tok / 16)%N r1 with
      | Some (ll, lit) =>
          match skipn ll lit with
          | [] => LASTLITERALS <=? ll
          | _ :: _ :: r4 => match ref_length (tok mod 16)%N r4 with
                            | Some (_, r5) => (MINCODA <=? length r5) && margins f r5
                            | None => false
                            end
          | _ => false
          end
      | None => false
      end
  | _, _ => false
  end.

Lemma ref_decode_min fuel : forall s o final, ref_decode fuel s o = Some final -> margins fuel s = true -> length o + LASTLITERALS <= length final.
Proof.
  induction fuel as [|f IH]; intros s o final H Hm; [discriminate|]. destruct s as [|tok r1]; [discriminate|]. cbn [ref_decode margins] in *.
  destruct (ref_length (tok / 16)%N r1) as [[ll lit]|]; [|discriminate].
  destruct (length lit <? ll) eqn:El; [discriminate|].
  destruct (skipn ll lit) as [|d0 [|d1 r4]] eqn:Es; [| discriminate |].
  - injection H as <-. rewrite app_length, rev_length, firstn_length. lia.
  - destruct (ref_length (tok mod 16)%N r4) as [[ml0 r5]|]; [|discriminate].
    destruct (N.to_nat (d0 + 256 * d1) =? 0); [discriminate|].
    destruct (ref_match (ml0 + MINMATCH) (N.to_nat (d0 + 256 * d1)) (rev (firstn ll lit) ++ o)) as [o1|] eqn:Em; [|discriminate].
    apply Bool.andb_true_iff in Hm. destruct Hm as [_ Hm]. specialize (IH _ _ _ H Hm).
    destruct (ref_match_grows Em) as (new & -> & Ln). rewrite !app_length in IH. lia.
Qed.
Arguments ref_decode_min {fuel s o final}.
Lemma ref_match_dist {n dist o o'} : ref_match n dist o = Some o' -> 0 < n -> dist <> 0 -> dist <= length o.
Proof.
  destruct n as [|n]; [lia|]. cbn [ref_match]. destruct (nth_error o (dist - 1)) eqn:E; [|discriminate].
  assert (dist - 1 < length o) by (apply nth_error_Some; congruence). lia.
Qed.

Lemma ref_step_end {s lit ll} f outr : read_sequence s = SeqEnd lit ll -> (N.of_nat (length s) < U32 - 1)%N ->
  ref_decode (S f) s outr = if (N.of_nat (length lit) =? ll)%N then Some (rev lit ++ outr) else None.
Proof.
  intros E Hb. pose proof (read_sequence_spec s) as H. rewrite E in H. destruct H as (tok & r1 & -> & E1 & El).
  pose proof (read_literal_ref r1 (tok / 16)%N) as R. rewrite E1 in R. destruct R as (R1 & _ & R3).
  cbn [ref_decode]. cbn [length] in Hb. destruct (ref_length (tok / 16)%N r1) as [[m r]|].
  - destruct R3 as (<- & Hm). destruct (Nat.ltb_spec (length lit) m) as [Hlt|Hge].
    + destruct (N.eqb_spec (N.of_nat (length lit)) ll); [apply cap_exact in Hm; lia|reflexivity].
    + apply cap_exact in Hm; [subst m|lia]. destruct (N.eqb_spec (N.of_nat (length lit)) ll) as [<-|Hne].
      * rewrite Nat2N.id, skipn_all, firstn_all. reflexivity.
      * destruct (skipn (N.to_nat ll) lit) as [|x [|y t]] eqn:Es; [| reflexivity |];
          apply (f_equal (@length N)) in Es; rewrite skipn_length in Es; cbn [length] in Es; lia.
  - destruct R3 as (-> & H15). destruct (N.eqb_spec (N.of_nat (length (@nil N))) ll); [cbn [length] in *; lia|reflexivity].
Qed.

(* [mo] is the match length the reference reads, None when the input ends before its extension bytes do.  It is the decoder's [ml]
   whenever input is left after the header and [ml] has not wrapped below MINMATCH; and [ml] is [mo] whenever that fits 32 bits *)
Lemma ref_step_match {s more lit ll ml md rest} f outr : read_sequence s = SeqMatch more lit ll ml md rest ->
  (N.of_nat (length s) < U32 - 1)%N ->
  exists mo : option nat,
    ref_decode (S f) s outr =
      match mo with
      | Some m => if N.to_nat md =? 0 then None
                  else match ref_match m (N.to_nat md) (rev (firstn (N.to_nat ll) lit) ++ outr) with
                       | Some o2 => ref_decode f rest o2
                       | None => None
                       end
      | None => None
      end /\
    margins (S f) s = match mo with Some _ => more && margins f rest | None => false end /\
    (rest <> [] -> (N.of_nat MINMATCH <= ml)%N -> mo = Some (N.to_nat ml)) /\
    (forall m, mo = Some m -> MINMATCH <= m /\ ((N.of_nat m < U32)%N -> ml = N.of_nat m)).
Proof.
  intros E Hb. destruct (read_sequence_sizes E) as (L3 & _). pose proof (read_sequence_spec s) as H. rewrite E in H.
  destruct H as (tok & r1 & d0 & d1 & r4 & ml0 & -> & E1 & E3 & -> & E4 & -> & ->).
  pose proof (read_literal_ref r4 (tok mod 16)%N) as R. rewrite E4 in R. destruct R as (_ & Hlt & R).
  assert (Hml0 : (ml0 < U32)%N) by (apply Hlt; pose proof (N.mod_lt tok 16); unfold U32; lia).
  cbn [ref_decode margins].
  rewrite (ref_length_of_read E1) by lia.
  destruct (Nat.ltb_spec (length lit) (N.to_nat ll)); [lia|]. rewrite E3.
  destruct (ref_length (tok mod 16)%N r4) as [[m0 r5]|].
  - destruct R as (<- & Hm0). destruct (match_len ml0 m0 Hm0 Hml0) as (Hsound & Hexact).
    exists (Some (m0 + MINMATCH)). split; [reflexivity|]. split; [reflexivity|]. split.
    + intros _ Hml. rewrite (Hsound Hml). reflexivity.
    + intros m [= <-]. split; [lia|exact Hexact].
  - destruct R as (-> & _). exists None. split; [reflexivity|]. split; [reflexivity|]. split; [congruence|discriminate].
Qed.

Lemma match_refused {s more lit ll ml md rest out d orem} f : read_sequence s = SeqMatch more lit ll ml md rest ->
  more = false \/ orem < align (N.to_nat ll) \/ match_guard (d + N.to_nat ll) (orem - N.to_nat ll) ml md = true ->
  forall final, d <= length out -> (N.of_nat (length s) < U32 - 1)%N -> (N.of_nat (d + orem) < U32)%N -> margins (S f) s = true ->
  ref_decode (S f) s (abs out d) = Some final -> length final <> d + orem.
Proof.
  intros E Ht final Hd Hb Ho Hm Hr Hf. destruct (read_sequence_sizes E) as (L3 & _).
  destruct (ref_step_match f (abs out d) E Hb) as (mo & Er & Em & _ & Hmo). rewrite Er in Hr. rewrite Em in Hm. clear Er Em.
  destruct mo as [m|]; [|discriminate]. destruct (Hmo m eq_refl) as (Hm4 & Hml). apply andb_prop in Hm. destruct Hm as (-> & Hm').
  destruct (Nat.eqb_spec (N.to_nat md) 0) as [|Hz]; [discriminate|]. destruct (ref_match m _ _) as [o2|] eqn:Erm; [|discriminate].
  (* what the reference still has to produce: the match, and at least LASTLITERALS literals *)
  pose proof (ref_decode_min Hr Hm') as Hmin. destruct (ref_match_grows Erm) as (new & Eo & Ln).
  unfold MINMATCH, LASTLITERALS in *. pose proof (ref_match_dist Erm ltac:(lia) Hz) as Hdist.
  rewrite Eo, !app_length, rev_length, firstn_length, abs_length in Hmin by exact Hd.
  rewrite app_length, rev_length, firstn_length, abs_length in Hdist by exact Hd.
  pose proof (align_bound (N.to_nat ll)) as Hal. destruct Ht as [Ht|[Ht|Ht]]; [discriminate|lia|].
  apply match_guard_spec in Ht; lia.
Qed.

Theorem loop_outcome fuel : forall s out d orem, s <> [] ->
  match loop fuel s out d orem with
  | Ok n out' => length out' = length out /\ n <= length out' /\
      ((N.of_nat (length s) < U32 - 1)%N -> ref_decode fuel s (abs out d) = Some (abs out' n))
  | Trap => length out < d + orem
  | OutOfFuel => fuel <= length s
  | Fail => forall final, d <= length out -> (N.of_nat (length s) < U32 - 1)%N -> (N.of_nat (d + orem) < U32)%N ->
      margins fuel s = true -> ref_decode fuel s (abs out d) = Some final -> length final <> d + orem
  end.
Proof.
  induction fuel as [|f IH]; intros s out d orem Hs; [cbn; lia|]. rewrite loop_S.
  destruct (read_sequence s) as [|lit ll|more lit ll ml md rest] eqn:E.
  - pose proof (read_sequence_spec s) as H. rewrite E in H. congruence.
  - pose proof (last_stage_spec out d orem lit ll) as HL.
    destruct (last_stage out d orem lit ll) as [| | |n out']; [exact HL|destruct HL| |].
    + intros final Hd Hb _ _ Hr. rewrite (ref_step_end f _ E Hb) in Hr.
      destruct (N.eqb_spec (N.of_nat (length lit)) ll); [|discriminate]. injection Hr as <-.
      rewrite app_length, rev_length, abs_length by exact Hd. lia.
    + destruct HL as (El & -> & L & B & A). split; [exact L|]. split; [lia|]. intros Hb.
      rewrite (ref_step_end f _ E Hb), A. apply N.eqb_eq in El. rewrite El. reflexivity.
  - destruct (read_sequence_sizes E) as (L3 & Hmore). destruct more.
    2:{ (* too little input left for another sequence: taken as the last one, which needs the literal to be all that is left *)
        pose proof (last_stage_spec out d orem lit ll) as HL.
        destruct (last_stage out d orem lit ll) as [| | |n out']; [exact HL|destruct HL|apply (match_refused f E); auto|lia]. }
    unfold MINCODA in Hmore.
    assert (Hrest : rest <> []) by (destruct rest; [cbn in Hmore; lia|discriminate]).
    pose proof (lit_stage_spec out d orem lit ll ltac:(lia)) as HL.
    destruct (lit_stage out d orem lit ll) as [[[[out1 d1] orem1]|]|]; [|apply (match_refused f E); auto|exact HL].
    destruct HL as (-> & -> & Hll & L1 & A1).
    destruct (match_guard _ _ _ _) eqn:Eg; [apply (match_refused f E); auto|].
    apply match_guard_spec in Eg. destruct Eg as (Hmd & Hml & Horem).
    pose proof (match_copy_spec out1 _ (orem - N.to_nat ll) (N.to_nat ml) _ Hmd ltac:(lia)) as HC.
    destruct (match_copy _ _ _ _ _) as [out2|]; [|lia]. destruct HC as (L2 & B2 & R2).
    (* past the copy the reference is where the decoder is: both go on with [rest] *)
    assert (Href : (N.of_nat (length s) < U32 - 1)%N ->
              ref_decode (S f) s (abs out d) = ref_decode f rest (abs out2 (d + N.to_nat ll + N.to_nat ml)) /\ margins (S f) s = margins f rest).
    { intros Hb. destruct (ref_step_match f (abs out d) E Hb) as (mo & -> & -> & Hmo & _).
      rewrite (Hmo Hrest) by (unfold MINMATCH; lia). destruct (Nat.eqb_spec (N.to_nat md) 0); [lia|]. rewrite <- A1, R2. split; reflexivity. }
    specialize (IH rest out2 (d + N.to_nat ll + N.to_nat ml) (orem - N.to_nat ll - N.to_nat ml) Hrest).
    destruct (loop f rest out2 _ _) as [| | |n out']; [lia|lia| |].
    + intros final Hd Hb Ho Hm Hr Hf. destruct (Href Hb) as (Er & Em). rewrite Er in Hr. rewrite Em in Hm.
      apply (IH final); try assumption; lia.
    + destruct IH as (L3' & B3 & S3). split; [lia|]. split; [exact B3|]. intros Hb.
      rewrite (proj1 (Href Hb)). apply S3. lia.
Qed.
