(* Proofs/StreamProofs.v — invariants of the stream model preserved by EVERY primitive operation, hence by every
   operation sequence (whatever rules, bytecode and text produced it).  An operation is a short sequence of two kinds of
   edit, a change of the stream and a write of one attribute record (only freeSlot, which drops a record, and associateChars,
   which rewrites them all, end otherwise); [step] says what an edit must keep, [apply_op_step] goes through the operations
   once, and [run_ops_ind] carries any invariant over a sequence. *)
From GR Require Import Base.Bytes Model.StreamModel.
From Coq Require Import Permutation.
Local Open Scope Z_scope.

Lemma mem_In s l : mem s l = true <-> In s l.
Proof.
  unfold mem. rewrite existsb_exists. split.
  - intros (t & Ht & E). apply N.eqb_eq in E. subst. exact Ht.
  - intros H. exists s. split; [exact H|apply N.eqb_refl].
Qed.
Lemma mem_false s l : mem s l = false <-> ~ In s l.
Proof. rewrite <- mem_In. destruct (mem s l); split; intros; congruence. Qed.

Lemma insert_before_perm nw at_ l : Permutation (insert_before nw at_ l) (nw :: l).
Proof.
  induction l as [|y r IH]; cbn [insert_before]; [reflexivity|].
  destruct (y =? at_)%N; [reflexivity|]. rewrite IH. apply perm_swap.
Qed.
Lemma In_insert_before nw at_ l x : In x (insert_before nw at_ l) <-> x = nw \/ In x l.
Proof. rewrite insert_before_perm. cbn [In]. split; intros [H|H]; auto. Qed.
Lemma length_insert_before nw at_ l : In at_ l -> length (insert_before nw at_ l) = S (length l).
Proof. intros _. exact (Permutation_length (insert_before_perm nw at_ l)). Qed.
Lemma NoDup_remove s l : NoDup l -> NoDup (remove s l).
Proof. apply NoDup_filter. Qed.
Lemma In_remove s l x : In x (remove s l) <-> In x l /\ x <> s.
Proof.
  unfold remove. rewrite filter_In, Bool.negb_true_iff, N.eqb_neq. reflexivity.
Qed.

Lemma take_marks_split l : forall m rest, take_marks l = (m, rest) -> l = m ++ rest.
Proof.
  induction l as [|[s b] r IH]; intros m rest H; cbn [take_marks] in H.
  - inversion H; reflexivity.
  - destruct b.
    + destruct (take_marks r) as [m' rest'] eqn:E. inversion H; subst. cbn [app]. f_equal. apply IH. reflexivity.
    + inversion H; reflexivity.
Qed.

Lemma clusters_concat fuel : forall l, (length l < fuel)%nat -> concat (clusters fuel l) = map fst l.
Proof.
  induction fuel as [|fuel IH]; intros l Hf; [lia|]. cbn [clusters].
  destruct l as [|[s b] r]; [reflexivity|].
  destruct (take_marks r) as [m rest] eqn:E. cbn [concat map fst].
  apply take_marks_split in E. subst r. rewrite map_app, IH; [reflexivity|]. cbn [length] in Hf. rewrite app_length in Hf. lia.
Qed.

Lemma Permutation_concat_rev {A} (ls : list (list A)) : Permutation (concat (rev ls)) (concat ls).
Proof.
  induction ls as [|x r IH]; [constructor|]. cbn [rev concat]. rewrite concat_app. cbn [concat]. rewrite app_nil_r.
  rewrite Permutation_app_comm. apply Permutation_app_head. exact IH.
Qed.

Lemma map_fst_combine {A B} (l : list A) : forall l' : list B, length l' = length l -> map fst (combine l l') = l.
Proof. induction l as [|x r IH]; intros [|b m] H; cbn in *; try congruence. f_equal. apply IH. lia. Qed.

Lemma rev_keep_marks_perm l marks : length marks = length l -> Permutation (rev_keep_marks l marks) l.
Proof.
  intros Hl. unfold rev_keep_marks.
  destruct (take_marks (combine l marks)) as [lead rest] eqn:E. apply take_marks_split in E.
  rewrite <- (map_fst_combine l marks Hl), E, map_app.
  rewrite Permutation_concat_rev, clusters_concat by lia. reflexivity.
Qed.

Lemma do_reverse_ok st marks st' : do_reverse st marks = Ok st' ->
  st' = st \/ st' = set_stream st (rev_keep_marks (st_stream st) marks) /\ length marks = length (st_stream st).
Proof.
  unfold do_reverse. destruct (negb (length marks =? length (st_stream st))%nat) eqn:El; [discriminate|].
  apply Bool.negb_false_iff, Nat.eqb_eq in El.
  destruct (st_stream st) as [|x [|y r]]; intros H; injection H as <-; auto.
Qed.

(* C05: character associations stay inside [0, nchars) *)
Definition in_range (n : Z) (a : sattr) : Prop :=
  0 <= a_before a < n /\ 0 <= a_after a < n /\ 0 <= a_orig a < n.
Definition ranges_ok (st : sstate) : Prop :=
  0 <= st_deforig st < st_nchars st /\ forall s a, aget (st_attr st) s = Some a -> in_range (st_nchars st) a.
Definition op_ok (n : Z) (o : op) : Prop := match o with OAppend _ ci => 0 <= ci < n | _ => True end.

Lemma aset_in_range n m x b : (forall s a, aget m s = Some a -> in_range n a) -> in_range n b ->
  forall s a, aget (aset m x b) s = Some a -> in_range n a.
Proof. intros Hm Hb s a. unfold aget, aset. destruct (s =? x)%N; [intros E; injection E as <-; exact Hb|apply Hm]. Qed.

(* what an edit of the state keeps; [G] is what is known of the operation's argument (only OAppend has one that matters) *)
Definition step (G : Prop) (st st' : sstate) : Prop :=
  (NoDup (st_stream st) -> NoDup (st_stream st')) /\ st_nchars st' = st_nchars st /\ (G -> ranges_ok st -> ranges_ok st').

Section Step.
Variable G : Prop.

Lemma step_refl st : step G st st.
Proof. split; [|split]; auto. Qed.
Lemma step_trans st1 st2 st3 : step G st1 st2 -> step G st2 st3 -> step G st1 st3.
Proof. intros (A1 & B1 & C1) (A2 & B2 & C2). split; [|split]; [auto|congruence|auto]. Qed.
Lemma step_stream st l : (NoDup (st_stream st) -> NoDup l) -> step G st (set_stream st l).
Proof. split; [|split]; auto. Qed.
Lemma step_upd st s a : (G -> ranges_ok st -> in_range (st_nchars st) a) -> step G st (upd_attr st s a).
Proof.
  intros Ha. split; [|split]; [auto|reflexivity|]. intros g R. split; [apply R|]. apply aset_in_range; [apply R|exact (Ha g R)].
Qed.
Lemma step_new st nw l a : mem nw (st_stream st) = false -> Permutation (nw :: st_stream st) l ->
  (G -> ranges_ok st -> in_range (st_nchars st) a) -> step G st (upd_attr (set_stream st l) nw a).
Proof.
  intros Hn P Ha. eapply step_trans; [apply step_stream|apply step_upd; exact Ha].
  intros H. apply (Permutation_NoDup P). constructor; [apply mem_false; exact Hn|exact H].
Qed.
Lemma step_copy st s t a i p k c d : aget (st_attr st) t = Some a ->
  step G st (upd_attr st s (mkattr (a_before a) (a_after a) (a_orig a) i p k c d)).
Proof. intros E. apply step_upd. intros _ [_ R]. exact (R t a E). Qed.

Lemma step_set_par st s p : step G st (set_par st s p).
Proof. unfold set_par. destruct (aget (st_attr st) s) as [a|] eqn:E; [eapply step_copy; exact E|apply step_refl]. Qed.
Lemma step_remove_kid st p s : step G st (remove_kid st p s).
Proof. unfold remove_kid. destruct (aget (st_attr st) p) as [a|] eqn:E; [eapply step_copy; exact E|apply step_refl]. Qed.
Lemma step_free_kids fuel : forall st s, step G st (free_kids fuel st s).
Proof.
  induction fuel as [|fuel IH]; intros st s; cbn [free_kids]; [apply step_refl|].
  destruct (aget (st_attr st) s) as [a|] eqn:Ea; [|apply step_refl].
  destruct (a_kids a) as [|k r]; [apply step_refl|].
  pose proof (step_copy st s s a (a_index a) (a_par a) [] (a_copied a) (a_deleted a) Ea) as Hclear.
  destruct (aget (st_attr st) k) as [ka|]; [|exact Hclear].
  destruct (match a_par ka with Some p => (p =? s)%N | None => false end); [|exact Hclear].
  eapply step_trans; [|apply IH]. eapply step_trans; [apply step_set_par|apply step_remove_kid].
Qed.
End Step.

Lemma stream_upd_attr st s a : st_stream (upd_attr st s a) = st_stream st.
Proof. reflexivity. Qed.
Lemma ranges_set_stream st l : ranges_ok st -> ranges_ok (set_stream st l).
Proof. intros H. exact H. Qed.

Lemma ext_after_bound fuel : forall cs a n idx cs' r, ext_after fuel cs a n idx = (cs', r) -> a - 1 <= r /\ (r < n \/ r = a - 1).
Proof.
  induction fuel as [|fuel IH]; intros cs a n idx cs' r H; cbn [ext_after] in H.
  - inversion H; subst. lia.
  - destruct ((a <? n) && match ci_get cs a with Some c => c_after c <? 0 | None => false end) eqn:E.
    + apply IH in H. lia.
    + inversion H; subst. lia.
Qed.
Lemma ext_before_bound fuel : forall cs a idx cs' r, ext_before fuel cs a idx = (cs', r) -> r <= a + 1 /\ (0 <= r \/ r = a + 1).
Proof.
  induction fuel as [|fuel IH]; intros cs a idx cs' r H; cbn [ext_before] in H.
  - inversion H; subst. lia.
  - destruct ((0 <=? a) && match ci_get cs a with Some c => c_before c <? 0 | None => false end) eqn:E.
    + apply IH in H. lia.
    + inversion H; subst. lia.
Qed.

Lemma set_indices_range n l : forall m i, (forall s a, aget m s = Some a -> in_range n a) ->
  forall s a, aget (set_indices m l i) s = Some a -> in_range n a.
Proof.
  induction l as [|x r IH]; intros m i Hm; cbn [set_indices]; [exact Hm|].
  apply IH. destruct (m x) as [xa|] eqn:Ex; [|exact Hm]. apply aset_in_range; [exact Hm|exact (Hm x xa Ex)].
Qed.

Lemma assoc_pass2_range n : forall l m cs m' cs', (forall s a, aget m s = Some a -> in_range n a) ->
  assoc_pass2 m l n cs = (m', cs') -> forall s a, aget m' s = Some a -> in_range n a.
Proof.
  induction l as [|x r IH]; intros m cs m' cs' Hm H; cbn [assoc_pass2] in H; [inversion H; subst; exact Hm|].
  destruct (m x) as [xa|] eqn:Ex; [|eapply IH; eassumption].
  destruct (ext_after (S (Z.to_nat n)) cs (a_after xa + 1) n (a_index xa)) as [cs1 na] eqn:E1.
  destruct (ext_before (S (Z.to_nat n)) cs1 (a_before xa - 1) (a_index xa)) as [cs2 nb] eqn:E2.
  destruct (Hm x xa Ex) as (Hb & Ha & Ho).
  apply ext_after_bound in E1. apply ext_before_bound in E2.
  eapply IH; [|exact H]. apply aset_in_range; [exact Hm|]. unfold in_range. cbn. lia.
Qed.

Lemma with_attr_ok st s k st' : with_attr st s k = Ok st' -> exists a, aget (st_attr st) s = Some a /\ k a = Ok st'.
Proof. unfold with_attr. destruct (aget (st_attr st) s) as [a|]; [|discriminate]. intros H. exists a. split; [reflexivity|exact H]. Qed.

(* [ok_path H], for [H : e = Ok st'], follows the path on which [e] answers [Ok] and nothing else: each test and [with_attr] at
   the head of [e] is split, the [Err] branches are dropped, what was looked up is kept as a hypothesis, and at [Ok _] the answer
   replaces [st'].  It closes no goal; where two branches answer [Ok] it leaves both. *)
Ltac ok_path H :=
  repeat match type of H with
         | with_attr _ _ _ = Ok _ => apply with_attr_ok in H; destruct H as (? & ? & H)
         | match ?c with _ => _ end = Ok _ => destruct c eqn:?; try discriminate H
         end;
  try (injection H as <-).

Lemma do_insert_step {st nw at_ st'} : do_insert st nw at_ = Ok st' -> step True st st'.
Proof.
  unfold do_insert. intros H. destruct (aget (st_attr st) nw); [discriminate|]. destruct (mem nw (st_stream st)) eqn:Em; [discriminate|].
  destruct at_ as [iss|].
  - destruct (negb (mem iss (st_stream st))); [discriminate|]. apply with_attr_ok in H. destruct H as (ia & Eia & H). injection H as <-.
    apply step_new; [exact Em|symmetry; apply insert_before_perm|].
    (* between its neighbours' associations *)
    intros _ [_ R]. destruct (R iss ia Eia) as (Hb & _ & Ho).
    set (bef := match prev_of iss (st_stream st) None with Some p => _ | None => _ end).
    assert (Hbef : 0 <= bef < st_nchars st).
    { subst bef. destruct (prev_of iss (st_stream st) None) as [p|]; [|exact Hb].
      destruct (aget (st_attr st) p) as [pa|] eqn:Ep; [|exact Hb]. apply (R p pa Ep). }
    unfold in_range. cbn. lia.
  - injection H as <-. apply step_new; [exact Em|apply Permutation_cons_append|].
    (* the last slot's associations, or the default *)
    intros _ [Hd R].
    destruct (last (map Some (st_stream st)) None) as [lst|]; [destruct (aget (st_attr st) lst) as [la|] eqn:El|].
    + exact (R lst la El).
    + unfold in_range, fresh_attr. cbn. lia.
    + unfold in_range. cbn. lia.
Qed.

Lemma fold_left_inv {A B} (f : A -> B -> A) (J : A -> Prop) : (forall a b, J a -> J (f a b)) -> forall l a, J a -> J (fold_left f l a).
Proof. intros Hf. induction l as [|b l IH]; intros a Ha; [exact Ha|apply IH, Hf, Ha]. Qed.

Definition assoc_J (n : Z) (mm : Z * Z) : Prop := (fst mm = -1 /\ snd mm = -1) \/ (0 <= fst mm < n /\ 0 <= snd mm < n).
Lemma do_assoc_step {st s refs st'} : do_assoc st s refs = Ok st' -> step True st st'.
Proof.
  unfold do_assoc. intros H. apply with_attr_ok in H. destruct H as (a & Ea & H).
  destruct (fold_left _ refs (-1, -1)) as [mn mx] eqn:Ef. ok_path H; [|apply step_refl].
  apply step_upd. intros _ [_ R]. destruct (R s a Ea) as (_ & _ & Ho).
  assert (HJ : assoc_J (st_nchars st) (mn, mx)).
  { rewrite <- Ef. apply fold_left_inv; [|left; split; reflexivity]. intros mm [t|] HJ; [|exact HJ].
    destruct (aget (st_attr st) t) as [ta|] eqn:Et; [|exact HJ]. destruct (R t ta Et) as (Hb & Ha & _). unfold assoc_J in *. cbn [fst snd].
    destruct HJ as [[E1 E2]|[R1 R2]].
    - rewrite E1, E2, Z.eqb_refl. cbn [orb]. right. destruct (-1 <? a_after ta) eqn:E; lia.
    - right. split; [destruct ((fst mm =? -1) || (a_before ta <? fst mm))|destruct (snd mm <? a_after ta)]; lia. }
  unfold assoc_J in HJ. cbn [fst snd] in HJ. unfold in_range. cbn. lia.
Qed.

Theorem apply_op_step st o st' : apply_op st o = Ok st' -> step (op_ok (st_nchars st) o) st st'.
Proof.
  intros H. destruct o; cbn [apply_op] in H.
  - (* append *) unfold do_append in H. ok_path H. apply step_new; [assumption|apply Permutation_cons_append|].
    unfold in_range, fresh_attr; cbn. lia.
  - (* insert *) exact (do_insert_step H).
  - (* delete *) unfold do_delete in H. ok_path H. eapply step_trans; [apply step_stream, NoDup_remove|].
    eapply step_copy; eassumption.
  - (* putcopy *) unfold do_putcopy in H. ok_path H.
    + eapply step_trans; eapply step_copy; eassumption.
    + eapply step_copy; eassumption.
  - (* tempcopy *) unfold do_tempcopy in H. ok_path H. eapply step_copy; eassumption.
  - (* free *) unfold do_free in H. destruct (aget (st_attr st) s) as [a|]; [|injection H as <-; apply step_refl].
    set (st1 := match a_par a with Some p => remove_kid st p s | None => st end) in H.
    set (st2 := free_kids _ st1 s) in H.
    assert (H2 : step True st st2).
    { eapply step_trans; [|apply step_free_kids]. subst st1. destruct (a_par a); [apply step_remove_kid|apply step_refl]. }
    injection H as <-. eapply step_trans; [exact H2|].
    (* the slot leaves the stream and the map *)
    split; [|split]; [apply NoDup_remove|reflexivity|]. intros _ [Hd R]. split; [exact Hd|]. intros t b. cbn [st_attr st_nchars]. unfold adel, aget.
    destruct (t =? s)%N; [discriminate|apply R].
  - (* detach *) unfold do_detach in H. ok_path H; [|apply step_refl]. eapply step_trans; [apply step_remove_kid|apply step_set_par].
  - (* attach; the test holds 200-deep numerals and says nothing here: it is folded away before H is taken apart *)
    unfold do_attach in H. remember ((_ <? 100)%nat && _) as ok in H. ok_path H; [apply step_refl|].
    eapply step_trans; [|apply step_set_par]. eapply step_copy; eassumption.
  - (* assoc *) exact (do_assoc_step H).
  - (* reverse *) apply do_reverse_ok in H. destruct H as [->|[-> El]]; [apply step_refl|].
    apply step_stream, Permutation_NoDup. symmetry. apply rev_keep_marks_perm. exact El.
  - (* associateChars *) unfold do_assocchars in H. destruct (assoc_pass2 _ _ _ _) as [m2 cs2] eqn:E2. injection H as <-.
    split; [|split]; [auto|reflexivity|]. intros _ [Hd R]. split; [exact Hd|].
    eapply assoc_pass2_range; [|exact E2]. apply set_indices_range. exact R.
  - injection H as <-. apply step_refl.
Qed.

Lemma run_ops_ind (I : sstate -> Prop) (G : op -> Prop) :
  (forall st o st', G o -> I st -> apply_op st o = Ok st' -> I st') ->
  forall ops st st', Forall G ops -> I st -> run_ops st ops = Ok st' -> I st'.
Proof.
  intros Hstep. induction ops as [|o r IH]; intros st st' Hops Hi H; cbn [run_ops] in H; [injection H as <-; exact Hi|].
  inversion Hops as [|? ? Ho Hr]; subst. destruct (apply_op st o) as [st1|e] eqn:E; [|discriminate].
  exact (IH st1 st' Hr (Hstep st o st1 Ho Hi E) H).
Qed.

Theorem apply_op_wf_stream st o st' : NoDup (st_stream st) -> apply_op st o = Ok st' -> NoDup (st_stream st').
Proof. intros Hw H. exact (proj1 (apply_op_step st o st' H) Hw). Qed.

Theorem run_ops_wf_stream ops : forall st st', NoDup (st_stream st) -> run_ops st ops = Ok st' -> NoDup (st_stream st').
Proof.
  intros st st'. apply (run_ops_ind (fun st => NoDup (st_stream st)) (fun _ => True)); [intros ? ? ? _; apply apply_op_wf_stream|].
  apply Forall_forall. auto.
Qed.

Theorem run_ops_ranges ops st st' : ranges_ok st -> Forall (op_ok (st_nchars st)) ops -> run_ops st ops = Ok st' ->
  ranges_ok st' /\ st_nchars st' = st_nchars st.
Proof.
  intros R Hops. apply (run_ops_ind (fun st1 => ranges_ok st1 /\ st_nchars st1 = st_nchars st) (op_ok (st_nchars st))); [|exact Hops|auto].
  intros st1 o st2 Ho [R1 N1] E. rewrite <- N1 in Ho. destruct (apply_op_step st1 o st2 E) as (_ & N & K). split; [auto|congruence].
Qed.

Lemma ci_both_sides_spec c : c_before (ci_both_sides c) < 0 <-> c_after (ci_both_sides c) < 0.
Proof.
  unfold ci_both_sides. destruct (Z.ltb_spec (c_before c) 0) as [Hb|Hb]; cbn [c_before c_after]; [tauto|].
  destruct (Z.ltb_spec (c_after c) 0) as [Ha|Ha]; cbn [c_before c_after]; lia.
Qed.
