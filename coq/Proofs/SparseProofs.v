(* Proofs/SparseProofs.v — sparse::operator[] reads inside the array for every key, whatever pairs the store was built from. *)
From GR Require Import Base.Bytes Model.SparseModel.
From Coq Require Import NArith Bool Lia ZifyBool.
Local Open Scope N_scope.

Lemma count_firstn_le : forall l j, count_true (firstn j l) <= count_true l.
Proof. induction l as [|b l IH]; intros [|j]; cbn [firstn count_true]; try lia. specialize (IH j). lia. Qed.
Lemma count_firstn_lt : forall l j, nth j l false = true -> count_true (firstn j l) + 1 <= count_true l.
Proof.
  induction l as [|b l IH]; intros [|j] H; cbn [nth] in H; try discriminate; cbn [firstn count_true].
  - subst b. lia.
  - specialize (IH j H). lia.
Qed.
Lemma set_bit_length : forall l j, length (set_bit l j) = length l.
Proof. induction l as [|b l IH]; intros [|j]; cbn [set_bit length]; try reflexivity. rewrite IH. reflexivity. Qed.
Lemma count_set_bit : forall l j, count_true (set_bit l j) <= count_true l + 1 /\ count_true l <= count_true (set_bit l j).
Proof.
  induction l as [|b l IH]; intros [|j]; cbn [set_bit count_true]; try lia.
  - destruct b; lia.
  - specialize (IH j). lia.
Qed.
Lemma count_set_bit_fresh : forall l j, (j < length l)%nat -> nth j l false = false -> count_true (set_bit l j) = count_true l + 1.
Proof.
  induction l as [|b l IH]; intros [|j] H Hb; cbn [length] in H; try lia; cbn [nth] in Hb; cbn [set_bit count_true].
  - subst b. lia.
  - rewrite (IH j ltac:(lia) Hb). lia.
Qed.
Lemma upd_chunk_length : forall l i f, length (upd_chunk l i f) = length l.
Proof. induction l as [|c l IH]; intros [|i] f; cbn [upd_chunk length]; try reflexivity. rewrite IH. reflexivity. Qed.
Lemma nth_upd_chunk : forall l i j f d, (i < length l)%nat -> nth j (upd_chunk l i f) d = if Nat.eqb j i then f (nth i l d) else nth j l d.
Proof.
  induction l as [|c l IH]; intros i j f d H; cbn [length] in H; [lia|].
  destruct i as [|i]; destruct j as [|j]; cbn [upd_chunk nth Nat.eqb]; try reflexivity. apply IH. lia.
Qed.
Lemma count_zero_mask : count_true zero_mask = 0. Proof. reflexivity. Qed.

(* chunk c of the table (an empty chunk beyond its end): how many of its bits are set, where its values start *)
Definition dflt := mkchunk zero_mask 0.
Definition cnt (chunks : list chunk) (c : nat) : N := count_true (c_mask (nth c chunks dflt)).
Definition off (chunks : list chunk) (c : nat) : N := c_off (nth c chunks dflt).

(* the state of the second loop of the constructor: a chunk with a bit set lies at or below the chunk ci being filled and has its
   values between the table and vi; chunk ci has its offset already when it has no value yet (chunk 0 at the start) *)
Record FInv (h : N) (nch : nat) (chunks : list chunk) (ci : N) (vi : N) (vals : list N) : Prop := {
  fi_len : length chunks = nch;
  fi_vi : vi = h + N.of_nat (length vals);
  fi_set : forall c, (c < nch)%nat -> cnt chunks c = 0 \/ ((c <= N.to_nat ci)%nat /\ h <= off chunks c /\ off chunks c + cnt chunks c <= vi);
  fi_open : h <= off chunks (N.to_nat ci) /\ off chunks (N.to_nat ci) + cnt chunks (N.to_nat ci) <= vi }.

(* what the second loop needs of the keys, and the first loop checked: the non-zero ones increase, so each lies in the chunk ci of the
   one before it or in a later one, inside the table *)
Fixpoint keys_ok (ps : list (N * N)) (ci nch : N) : Prop :=
  match ps with
  | [] => True
  | (k, v) :: r => if v =? 0 then keys_ok r ci nch else ci <= k / CHUNK < nch /\ keys_ok r (k / CHUNK) nch
  end.

Lemma scan_keys_ok : forall ps last nch nvals nch' nv', scan ps last nch nvals = Some (nch', nv') ->
  nch <= nch' /\ forall bound, nch' <= bound -> keys_ok ps (match last with Some l => l / CHUNK | None => 0 end) bound.
Proof.
  induction ps as [|[k v] r IH]; intros last nch nvals nch' nv' H; cbn [scan] in H.
  - injection H as <- <-. split; [lia | intros; exact I].
  - cbn [keys_ok]. destruct (v =? 0); [exact (IH _ _ _ _ _ H)|].
    destruct (match last with Some l => k <=? l | None => false end) eqn:E; [discriminate|].
    destruct (IH _ _ _ _ _ H) as [Hle Hk]. split; [lia|]. intros bound Hb. split; [|exact (Hk bound Hb)].
    split; [destruct last as [l|]; [apply N.div_le_mono; unfold CHUNK; lia | apply N.le_0_l] | lia].
Qed.

Lemma upd_chunk_twice : forall l i f g, upd_chunk (upd_chunk l i f) i g = upd_chunk l i (fun c => g (f c)).
Proof. induction l as [|c l IH]; intros [|i] f g; cbn [upd_chunk]; try reflexivity. rewrite IH. reflexivity. Qed.

(* one step of the second loop on a non-zero value: its two updates of chunk k / CHUNK are one: the bit is set, and a chunk that is
   entered for the first time starts at vi *)
Lemma fill_cons_nz k v r chunks ci vi vals : v <> 0 ->
  fill ((k, v) :: r) chunks ci vi vals =
  fill r (upd_chunk chunks (N.to_nat (k / CHUNK))
            (fun ch => mkchunk (set_bit (c_mask ch) (N.to_nat (k mod CHUNK))) (if k / CHUNK =? ci then c_off ch else vi)))
       (k / CHUNK) (vi + 1) (vals ++ [v]).
Proof.
  intros Hv. cbn [fill]. destruct (N.eqb_spec v 0); [contradiction|].
  destruct (k / CHUNK =? ci); [reflexivity | rewrite upd_chunk_twice; reflexivity].
Qed.

Lemma fill_inv h nch : forall ps chunks ci vi vals,
  FInv h nch chunks ci vi vals -> keys_ok ps ci (N.of_nat nch) ->
  let '(chunks', vals') := fill ps chunks ci vi vals in
  exists ci', FInv h nch chunks' ci' (h + N.of_nat (length vals')) vals'.
Proof.
  induction ps as [|[k v] r IH]; intros chunks ci vi vals Hi Hk.
  - exists ci. rewrite <- (fi_vi _ _ _ _ _ _ Hi). exact Hi.
  - cbn [keys_ok] in Hk. destruct (N.eqb_spec v 0) as [->|Hv]; [exact (IH _ _ _ _ Hi Hk)|].
    rewrite fill_cons_nz by exact Hv. destruct Hk as [[Hge Hc] Hrest].
    set (c := k / CHUNK) in *. set (j := N.to_nat (k mod CHUNK)).
    destruct Hi as [Hlen Hvi Hset Hopen]. assert (Hcc : (N.to_nat c < length chunks)%nat) by lia.
    pose proof (count_set_bit (c_mask (nth (N.to_nat c) chunks dflt)) j) as [Hcs _].
    (* chunk c before the step: either it is the open chunk, or it lies above it and is empty *)
    assert (Hoc : if c =? ci then h <= off chunks (N.to_nat c) /\ off chunks (N.to_nat c) + cnt chunks (N.to_nat c) <= vi else cnt chunks (N.to_nat c) = 0).
    { destruct (N.eqb_spec c ci) as [->|Hne]; [exact Hopen | destruct (Hset (N.to_nat c) ltac:(lia)); lia]. }
    apply (IH _ c (vi + 1) (vals ++ [v])); [|exact Hrest].
    constructor; unfold cnt, off in *; try intros d Hd; rewrite ?upd_chunk_length, ?(nth_upd_chunk _ _ _ _ _ Hcc), ?Nat.eqb_refl; cbn [c_mask c_off].
    + exact Hlen.
    + rewrite app_length. cbn [length]. lia.
    + destruct (Nat.eqb_spec d (N.to_nat c)) as [->|Hne]; cbn [c_mask c_off]; [right; destruct (c =? ci); lia|].
      specialize (Hset d Hd). lia.
    + destruct (c =? ci); lia.
Qed.

(* a well-formed store: the table is not empty, and the values of every chunk with a bit set lie after the table, inside the array *)
Definition store_ok (s : sparse) : Prop :=
  0 < header s /\
  forall c, (c < N.to_nat (sp_n s))%nat ->
    cnt (sp_chunks s) c = 0 \/ (header s <= off (sp_chunks s) c /\ off (sp_chunks s) c + cnt (sp_chunks s) c <= header s + N.of_nat (length (sp_vals s))).

Lemma word_in s i : i < header s + N.of_nat (length (sp_vals s)) -> word s i <> None.
Proof. unfold word. intros H. destruct (N.ltb_spec i (header s)); [discriminate|]. intros E. apply nth_error_None in E. lia. Qed.
Lemma lookup_index_ok s k : store_ok s -> lookup_index s k < header s + N.of_nat (length (sp_vals s)).
Proof.
  intros [Hh Hc]. unfold lookup_index. destruct (N.ltb_spec (k / CHUNK) (sp_n s)) as [Hlt|Hge].
  - rewrite N.mul_1_l. set (c := N.to_nat (k / CHUNK)). set (j := N.to_nat (k mod CHUNK)).
    destruct (nth j (c_mask (nth c (sp_chunks s) (mkchunk zero_mask 0))) false) eqn:Eb; [rewrite N.mul_1_l | rewrite N.mul_0_l; lia].
    specialize (Hc c ltac:(unfold c; lia)). unfold cnt, off, dflt in Hc. pose proof (count_firstn_lt _ _ Eb). lia.
  - destruct (nth _ _ false); rewrite N.mul_0_l; lia.
Qed.
Lemma lookup_ok s k : store_ok s -> lookup s k <> None.
Proof. intros H. unfold lookup. pose proof (word_in s _ (lookup_index_ok s k H)). destruct (word s (lookup_index s k)); [discriminate | contradiction]. Qed.

Lemma build_ok ps s : build ps = Some s -> store_ok s.
Proof.
  unfold build. destruct (scan ps None 0 0) as [[nch nv]|] eqn:Es; [|discriminate].
  destruct (scan_keys_ok _ _ _ _ _ _ Es) as [_ Hk]. specialize (Hk nch (N.le_refl _)).
  destruct (N.eqb_spec nch 0) as [->|Hn]; [intros [= <-]; split; [reflexivity | cbn; lia]|].
  set (h := nch * WORDS_PER_CHUNK).
  set (chunks0 := upd_chunk (repeat (mkchunk zero_mask 0) (N.to_nat nch)) 0 (fun ch => mkchunk (c_mask ch) h)).
  assert (Hrep : forall d, nth d (repeat (mkchunk zero_mask 0) (N.to_nat nch)) dflt = dflt) by exact (nth_repeat dflt _).
  assert (Hlen0 : (0 < length (repeat (mkchunk zero_mask 0) (N.to_nat nch)))%nat) by (rewrite repeat_length; lia).
  assert (Hi0 : FInv h (N.to_nat nch) chunks0 0 h []).
  { constructor; unfold cnt, off, chunks0; try intros d Hd; rewrite ?upd_chunk_length, ?repeat_length, ?(nth_upd_chunk _ _ _ _ _ Hlen0); cbn [length N.to_nat Nat.eqb c_off c_mask]; try lia.
    - left. destruct (Nat.eqb d 0); rewrite Hrep; reflexivity.
    - rewrite Hrep. cbn [dflt c_mask]. rewrite count_zero_mask. lia. }
  pose proof (fill_inv h (N.to_nat nch) ps chunks0 0 h [] Hi0 ltac:(rewrite N2Nat.id; exact Hk)) as Hf.
  destruct (fill ps chunks0 0 h []) as [chunks vals]. destruct Hf as [ci' Hi]. intros [= <-].
  destruct Hi as [_ _ Hset _]. unfold store_ok, header. cbn [sp_n sp_chunks sp_vals].
  replace (N.max 1 nch) with nch by lia. split; [unfold WORDS_PER_CHUNK; lia|].
  intros c Hc. destruct (Hset c Hc) as [H0|(_ & H1)]; [left; exact H0 | right; exact H1].
Qed.
