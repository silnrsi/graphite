(* Proofs/FsmProofs.v — the tables Pass::readPass builds are well formed whatever the pass bytes hold, and over well-formed tables
   Pass::runFSM indexes no array outside its bounds for any glyph string, puts at most MAX_SLOTS slots in the map and accumulates at
   most MAX_RULES rules, each of them a rule of the pass. *)
From GR Require Import Base.Mem Model.FsmModel.
From Coq Require Import NArith List Lia ZifyBool Bool.
Import ListNotations.
Local Open Scope N_scope.

Definition rules_ok (f : fsm) (l : list N) : Prop := (length l <= MAX_RULES)%nat /\ Forall (fun r => r < f_nrules f) l.

Definition fsm_wf (f : fsm) : Prop :=
  length (f_cols f) = N.to_nat (f_nglyphs f) /\ Forall (fun c => c = NOCOL \/ c < f_ncols f) (f_cols f) /\
  length (f_starts f) = N.to_nat (f_maxpre f - f_minpre f + 1) /\ Forall (fun s => s < f_nstates f) (f_starts f) /\
  length (f_trans f) = N.to_nat (f_ntrans f * f_ncols f) /\ Forall (fun s => s < f_nstates f) (f_trans f) /\
  length (f_rules f) = N.to_nat (f_nstates f) /\ Forall (rules_ok f) (f_rules f).

Lemma read16s_length t : forall k p l, read16s t p k = Some l -> length l = k.
Proof.
  induction k as [|k IH]; intros p l H; cbn [read16s] in H.
  - injection H as <-. reflexivity.
  - destruct (r16 t p) as [v|]; [|discriminate]. destruct (read16s t (p + 2) k) as [r|] eqn:E; [|discriminate].
    injection H as <-. cbn [length]. f_equal. eapply IH. exact E.
Qed.

Lemma existsb_false_forall (n : N) l : existsb (fun s => n <=? s) l = false -> Forall (fun s => s < n) l.
Proof.
  induction l as [|a l IH]; cbn [existsb]; intros H; [constructor|].
  apply orb_false_elim in H. destruct H as [H1 H2]. constructor; [lia | apply IH; exact H2].
Qed.

Lemma Forall_nth_error {A} {P : A -> Prop} {l n x} : Forall P l -> nth_error l n = Some x -> P x.
Proof. intros F E. rewrite Forall_forall in F. exact (F x (nth_error_In l n E)). Qed.

Lemma upd_range_inv [P : N -> Prop] [col] : P col -> forall [l n i l'], upd_range l i n col = Some l' ->
  Forall P l -> length l' = length l /\ Forall P l'.
Proof.
  intros Hc. induction l as [|x r IH]; intros [|n] i l' H F; cbn [upd_range] in H; try discriminate.
  1,2: injection H as <-; split; [reflexivity | exact F].
  inversion F as [|? ? Fx Fr]; subst. destruct i as [|i'].
  - destruct (x =? NOCOL); [|discriminate].
    destruct (upd_range r O n col) as [r'|] eqn:E; [|discriminate]. injection H as <-.
    destruct (IH _ _ _ E Fr) as [L F']. split; [cbn [length]; congruence | constructor; assumption].
  - destruct (upd_range r i' (S n) col) as [r'|] eqn:E; [|discriminate]. injection H as <-.
    destruct (IH _ _ _ E Fr) as [L F']. split; [cbn [length]; congruence | constructor; assumption].
Qed.

Lemma read_ranges_inv [t ng ncols] : forall [k p cols cols'], read_ranges t p k ng ncols cols = Some (Some cols') ->
  Forall (fun c => c = NOCOL \/ c < ncols) cols -> length cols' = length cols /\ Forall (fun c => c = NOCOL \/ c < ncols) cols'.
Proof.
  induction k as [|k IH]; intros p cols cols' H F; cbn [read_ranges] in H.
  - injection H as <-. split; [reflexivity | exact F].
  - destruct (r16 t p) as [first|]; [|discriminate]. destruct (r16 t (p + 2)) as [last|]; [|discriminate].
    destruct (r16 t (p + 4)) as [col|]; [|discriminate].
    destruct ((last <? first) || (ng <? last + 1) || (ncols <=? col)) eqn:E; [discriminate|].
    destruct (upd_range cols (N.to_nat first) (N.to_nat (last - first + 1)) col) as [c1|] eqn:U; [|discriminate].
    assert (Hc : col = NOCOL \/ col < ncols) by lia. destruct (upd_range_inv Hc U F) as [L1 F1].
    destruct (IH _ _ _ H F1) as [L2 F2]. split; [congruence | exact F2].
Qed.

(* None of the list operations of the loader and of the machine invents a rule: whatever holds of every rule of the arguments
   holds of every rule of the result (Forall_forall). *)
Lemma In_firstn {A} n (l : list A) x : In x (firstn n l) -> In x l.
Proof. intros H. rewrite <- (firstn_skipn n l). apply in_or_app. auto. Qed.
Lemma In_skipn {A} n (l : list A) x : In x (skipn n l) -> In x l.
Proof. intros H. rewrite <- (firstn_skipn n l). apply in_or_app. auto. Qed.
Lemma insert_in srt a : forall l x, In x (insert_rule srt a l) <-> x = a \/ In x l.
Proof.
  induction l as [|b r IH]; intros x; cbn [insert_rule]; [cbn; intuition congruence|].
  destruct (rule_lt srt b a); cbn [In]; [rewrite IH|]; intuition congruence.
Qed.
Lemma sort_rules_in srt : forall l x, In x (sort_rules srt l) <-> In x l.
Proof. unfold sort_rules. induction l as [|a r IH]; intros x; cbn [fold_right In]; [tauto|]. rewrite insert_in, IH. split; intros [H|H]; auto. Qed.
Lemma merge_nil_l srt r : merge_rules srt [] r = r.
Proof. destruct r; reflexivity. Qed.
Lemma merge_nil_r srt l : merge_rules srt l [] = l.
Proof. destruct l; reflexivity. Qed.
Lemma merge_cons srt a l b r : merge_rules srt (a :: l) (b :: r) =
  if rule_lt srt a b then a :: merge_rules srt l (b :: r) else if rule_lt srt b a then b :: merge_rules srt (a :: l) r else a :: merge_rules srt l r.
Proof. reflexivity. Qed.
Lemma merge_in srt : forall l r x, In x (merge_rules srt l r) -> In x l \/ In x r.
Proof.
  induction l as [|a l IHl]; intros r x; [rewrite merge_nil_l; auto|].
  induction r as [|b r IHr]; [rewrite merge_nil_r; auto|]. rewrite merge_cons.
  destruct (rule_lt srt a b); [|destruct (rule_lt srt b a)]; cbn [In]; intros [H|H]; auto.
  - apply IHl in H. cbn [In] in H. tauto.
  - apply IHr in H. tauto.
  - apply IHl in H. tauto.
Qed.
Lemma take_in l x : In x (take_rules l) -> In x l.
Proof. apply In_firstn. Qed.
Lemma take_rules_length l : (length (take_rules l) <= MAX_RULES)%nat.
Proof. apply firstn_le_length. Qed.
Lemma accumulate_in srt cur st x : In x (accumulate srt cur st) -> In x cur \/ In x st.
Proof. unfold accumulate. destruct st as [|b st]; [tauto|]. intros H. apply take_in, merge_in in H. exact H. Qed.

Lemma rules_ok_nil f : rules_ok f [].
Proof. split; [cbn; lia | constructor]. Qed.

(* readStates' third loop: every state's list is [] or the sorted, truncated copy of a piece of the rule map *)
Lemma state_rules_forall [P : list N -> Prop] [srt omap rmap nentries nstates nsucc] : P [] ->
  (forall mine, incl mine rmap -> P (take_rules (sort_rules srt mine))) ->
  forall [k s rs], state_rules srt omap rmap nentries nstates nsucc k s = Some rs -> length rs = k /\ Forall P rs.
Proof.
  intros P0 Pm. induction k as [|k IH]; intros s rs; cbn [state_rules].
  - intros [= <-]. split; [reflexivity | constructor].
  - specialize (IH (s + 1)). destruct (state_rules srt omap rmap nentries nstates nsucc k (s + 1)) as [r|].
    2: { destruct (s <? _); [|destruct (_ || _)]; discriminate. }
    destruct (IH r eq_refl) as [L F].
    destruct (s <? _); [|destruct (_ || _); [discriminate|]]; intros [= <-]; (split; [cbn [length]; congruence | constructor; [|exact F]]).
    + exact P0.
    + apply Pm. intros x Hx. eapply In_skipn, In_firstn, Hx.
Qed.

Lemma forall_repeat {A} [P : A -> Prop] [a] n : P a -> Forall P (repeat a n).
Proof. intros H. induction n; cbn [repeat]; constructor; auto. Qed.

(* the tables of an accepted pass: what holds of [] and of every sorted, truncated piece of a rule map with valid entries holds of
   every state's rules; the other tables are well formed *)
Lemma read_fsm_tables (P : list N -> Prop) t f : read_fsm t = FOk f -> P [] ->
  (forall mine, Forall (fun r => r < f_nrules f) mine -> P (take_rules (sort_rules (f_sort f) mine))) ->
  Forall P (f_rules f) /\ (f_nrules f <> 0 -> Forall (rules_ok f) (f_rules f) -> fsm_wf f).
Proof.
  unfold read_fsm.
  destruct (r16 t 4) as [nrules|]; [|discriminate]. destruct (r16 t 24) as [nstates|]; [|discriminate].
  destruct (r16 t 26) as [ntrans|]; [|discriminate]. destruct (r16 t 28) as [nsucc|]; [|discriminate].
  destruct (r16 t 30) as [ncols|]; [|discriminate]. destruct (r16 t 32) as [nranges|]; [|discriminate].
  destruct (nrules =? 0) eqn:E0.
  { intros H P0 _. injection H as <-. cbn [f_nrules f_rules]. split; [apply forall_repeat; exact P0 | lia]. }
  destruct (r16 t _) as [lastg|]; [|discriminate].
  destruct (read16s t _ (S (N.to_nat nsucc))) as [omap|]; [|discriminate].
  destruct (read16s t _ (N.to_nat (nth (N.to_nat nsucc) omap 0))) as [rmap|]; [|discriminate].
  destruct (rdb t _) as [minpre|]; [|discriminate]. destruct (rdb t _) as [maxpre|]; [|discriminate].
  destruct (read16s t _ (N.to_nat nrules)) as [srt|]; [|discriminate].
  destruct (read16s t _ (N.to_nat (maxpre - minpre + 1))) as [starts|] eqn:Es; [|discriminate].
  destruct (read16s t _ (N.to_nat (ntrans * ncols))) as [trans|] eqn:Et; [|discriminate].
  destruct (read_ranges t 40 _ _ ncols _) as [[cols|]|] eqn:Er; [|discriminate|discriminate].
  destruct (existsb (fun rn => nrules <=? rn) rmap) eqn:X1; [discriminate|].
  destruct (existsb (fun s => nstates <=? s) starts) eqn:X2; [discriminate|].
  destruct (existsb (fun s => nstates <=? s) trans) eqn:X3; [discriminate|].
  destruct (state_rules srt omap rmap _ nstates nsucc (N.to_nat nstates) 0) as [rules|] eqn:Sr; [|discriminate].
  intros H P0 Pm. injection H as <-. unfold fsm_wf.
  cbn [f_cols f_nglyphs f_ncols f_starts f_maxpre f_minpre f_nstates f_trans f_ntrans f_rules f_nrules f_sort] in *.
  destruct (read_ranges_inv Er (forall_repeat _ (or_introl eq_refl))) as [Lc Fc]. rewrite repeat_length in Lc.
  apply existsb_false_forall in X1, X2, X3. apply read16s_length in Es, Et.
  destruct (state_rules_forall P0 (fun mine Hi => Pm mine (incl_Forall Hi X1)) Sr) as [Lr Fr]. auto 10.
Qed.

Theorem read_fsm_wf t f : read_fsm t = FOk f -> f_nrules f <> 0 -> fsm_wf f.
Proof.
  intros H Hn. destruct (read_fsm_tables (rules_ok f) t f H (rules_ok_nil f)) as [Fr W]; [|exact (W Hn Fr)].
  intros mine Fm. split; [apply take_rules_length|]. rewrite Forall_forall in *. intros x Hx. apply Fm, (sort_rules_in (f_sort f)), take_in, Hx.
Qed.

Lemma accumulate_ok [f cur st] : rules_ok f cur -> rules_ok f st -> rules_ok f (accumulate (f_sort f) cur st).
Proof.
  intros [Lc Fc] [Ls Fs]. split.
  - unfold accumulate. destruct st; [exact Lc | apply take_rules_length].
  - rewrite Forall_forall in *. intros x Hx. apply accumulate_in in Hx. destruct Hx; auto.
Qed.

(* One walk through the loop of runFSM.  If it returns, the slot map holds at most MAX_SLOTS slots and the rules have every property P
   that the initial list has and that survives accumulating the rules of a state; it reads outside a table only if the tables are not
   well formed. *)
Lemma fsm_loop_spec (P : list N -> Prop) f : (forall cur sr, P cur -> In sr (f_rules f) -> P (accumulate (f_sort f) cur sr)) ->
  forall fuel state gids free pushed rules, P rules -> fuel = S free -> (1 <= free)%nat -> (pushed + free = MAX_SLOTS)%nat ->
  match fsm_loop f fuel state gids free pushed rules with
  | Some (_, n, rs) => (n <= MAX_SLOTS)%nat /\ P rs
  | None => fsm_wf f -> state < f_nstates f -> False
  end.
Proof.
  intros Pa. induction fuel as [|fuel IH]; intros state gids free pushed rules Pr Hf H1 Hp; [lia|].
  cbn [fsm_loop]. destruct gids as [|g rest]; [split; [lia | exact Pr]|].
  assert (R : (S pushed <= MAX_SLOTS)%nat /\ P rules) by (split; [lia | exact Pr]).
  destruct (f_nglyphs f <=? g) eqn:Eg; [exact R|].
  destruct (nth_error (f_cols f) (N.to_nat g)) as [col|] eqn:Ecol.
  2:{ intros (Lc & _) _. apply nth_error_None in Ecol. lia. }
  destruct (col =? NOCOL) eqn:Ec; [exact R|].
  destruct (Nat.eqb_spec (free - 1) 0) as [Ef|Ef]; [exact R|].
  destruct (f_ntrans f <=? state) eqn:En; [exact R|].
  destruct (nth_error (f_trans f) _) as [state'|] eqn:Et.
  2:{ intros (_ & Fc & _ & _ & Lt & _) _. apply nth_error_None in Et. destruct (Forall_nth_error Fc Ecol); nia. }
  assert (Hs' : fsm_wf f -> state' < f_nstates f).
  { intros (_ & _ & _ & _ & _ & Ft & _). exact (Forall_nth_error Ft Et). }
  set (e := if f_nstates f - f_nsucc f <=? state' then _ else Some rules).
  assert (He : match e with Some rules' => P rules' | None => fsm_wf f -> False end).
  { subst e. destruct (f_nstates f - f_nsucc f <=? state'); [|exact Pr].
    destruct (nth_error (f_rules f) (N.to_nat state')) as [sr|] eqn:Er; [exact (Pa _ _ Pr (nth_error_In _ _ Er))|].
    intros W. pose proof (Hs' W). destruct W as (_ & _ & _ & _ & _ & _ & Lr & _). apply nth_error_None in Er. lia. }
  destruct e as [rules'|]; [|intros W _; exact (He W)].
  destruct rest as [|g2 rest']; [split; [lia | exact He]|].
  destruct (state' =? 0); [split; [lia | exact He]|].
  specialize (IH state' (g2 :: rest') (free - 1)%nat (S pushed) rules' He ltac:(lia) ltac:(lia) ltac:(lia)).
  destruct (fsm_loop f fuel state' (g2 :: rest') (free - 1) (S pushed) rules') as [[[ok n] rs]|]; [exact IH | intros W _; exact (IH W (Hs' W))].
Qed.

Lemma run_fsm_spec (P : list N -> Prop) f ctx gids : P [] -> (forall cur sr, P cur -> In sr (f_rules f) -> P (accumulate (f_sort f) cur sr)) ->
  match run_fsm f ctx gids with Some (_, n, rs) => (n <= MAX_SLOTS)%nat /\ P rs | None => fsm_wf f -> False end.
Proof.
  intros P0 Pa. unfold run_fsm. destruct (ctx <? f_minpre f) eqn:Ec; [split; [lia | exact P0]|].
  destruct (nth_error (f_starts f) _) as [state|] eqn:Es.
  - pose proof (fsm_loop_spec P f Pa (S MAX_SLOTS) state gids MAX_SLOTS 0 [] P0 eq_refl ltac:(unfold MAX_SLOTS; lia) eq_refl) as H.
    destruct (fsm_loop f (S MAX_SLOTS) state gids MAX_SLOTS 0 []) as [[[ok n] rs]|]; [exact H|].
    intros W. apply (H W). destruct W as (_ & _ & _ & Fs & _). exact (Forall_nth_error Fs Es).
  - intros (_ & _ & Ls & _). apply nth_error_None in Es. lia.
Qed.

Lemma run_fsm_rules (P : list N -> Prop) [f ctx gids ok n rs] : run_fsm f ctx gids = Some (ok, n, rs) ->
  P [] -> (forall cur sr, P cur -> In sr (f_rules f) -> P (accumulate (f_sort f) cur sr)) -> P rs.
Proof. intros H P0 Pa. pose proof (run_fsm_spec P f ctx gids P0 Pa) as S. rewrite H in S. apply S. Qed.

Theorem run_fsm_safe f ctx gids : fsm_wf f ->
  exists ok n rs, run_fsm f ctx gids = Some (ok, n, rs) /\ (n <= MAX_SLOTS)%nat /\ rules_ok f rs.
Proof.
  intros W. pose proof W as (_ & _ & _ & _ & _ & _ & _ & Fr). rewrite Forall_forall in Fr.
  pose proof (run_fsm_spec (rules_ok f) f ctx gids (rules_ok_nil f) (fun cur sr Hc Hs => accumulate_ok Hc (Fr sr Hs))) as S.
  destruct (run_fsm f ctx gids) as [[[ok n] rs]|]; [exists ok, n, rs; split; [reflexivity | exact S] | contradiction (S W)].
Qed.
