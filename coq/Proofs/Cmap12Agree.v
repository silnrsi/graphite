(* Proofs/Cmap12Agree.v — Proofs/CmapSeg.v instantiated for format 12: on a subtable that CheckCmapSubtable12
   accepts and whose groups are well formed in the OpenType sense (start <= end <= 0x10FFFF, sorted, disjoint), the cache filled
   through CmapSubtable12NextCodepoint + keyed CmapSubtable12Lookup holds, for EVERY code point, what the direct (keyless) lookup
   returns. *)
From GR Require Import Model.CmapModel Proofs.CmapSafe Proofs.CmapSeg.
From Coq Require Import FMapPositive.
Local Open Scope N_scope.

Section Fmt12.
  Variable t : mem.
  Variable o n : N.
  Hypothesis W : mem_wf t.
  Hypothesis Hn : r32 t (o + 12) = Some n.
  Hypothesis Hb : o + 16 + 12 * n <= tlen t.

  Definition gval (i k : N) : N := match grp t o i k with Some v => v | None => 0 end.
  Lemma grp_val i k : i < n -> k < 3 -> grp t o i k = Some (gval i k).
  Proof. intros Hi Hk. unfold gval. destruct (grp_some t o n i k W Hb Hi Hk) as [v ->]. reflexivity. Qed.

  Hypothesis n_pos : 1 <= n.
  Hypothesis wf_se : forall i, i < n -> gval i 0 <= gval i 1 /\ gval i 1 <= 0x10FFFF.
  Hypothesis wf_sorted : forall i j, i < j -> j < n -> gval i 1 < gval j 0.

  Definition dl12 (c : N) : N := match lookup12 t o c 0 with Some g => g | None => 0 end.

  (* groups ending below c are passed over, so the loop may start at any index that only such groups precede *)
  Lemma loop_skip c fuel i : i < n -> gval i 1 < c -> lookup12_loop t o c (S fuel) i n = lookup12_loop t o c fuel (i + 1) n.
  Proof.
    intros Hi He. cbn [lookup12_loop]. assert (E : (n <=? i) = false) by lia. rewrite E.
    rewrite (grp_val i 0), (grp_val i 1) by lia. cbn [bind].
    assert (E2 : ((gval i 0 <=? c) && (c <=? gval i 1)) = false) by lia. rewrite E2. reflexivity.
  Qed.
  Lemma loop_from_key c : forall f1 f2 i k, i <= k -> k <= n -> (N.to_nat (n - i) < f1)%nat -> (N.to_nat (n - k) < f2)%nat ->
    (forall j, i <= j -> j < k -> gval j 1 < c) -> lookup12_loop t o c f1 i n = lookup12_loop t o c f2 k n.
  Proof.
    induction f1 as [|f1 IH]; intros f2 i k Hik Hk H1 H2 Hs; [lia|].
    destruct (N.eq_dec i k) as [->|Hne].
    - destruct f2 as [|f2]; [lia|]. cbn [lookup12_loop]. destruct (n <=? k) eqn:E; [reflexivity|].
      destruct (grp t o k 0) as [s|]; [|reflexivity]. destruct (grp t o k 1) as [e|]; [|reflexivity]. cbn [bind].
      destruct (_ && _); [reflexivity|]. apply IH; lia.
    - rewrite loop_skip by (try lia; apply Hs; lia). apply IH; try lia. intros j Hj1 Hj2. apply Hs; lia.
  Qed.

  Lemma look_key12 c key : c <= 0x10FFFF -> seg_key n (fun i => gval i 1) 0x10FFFF c key -> lookup12 t o c key = Some (dl12 c).
  Proof.
    intros Hc Hg.
    assert (Hk : key <= n /\ forall i, i < key -> gval i 1 < c).
    { destruct Hg as [->|[Hs [[Hk _]|[Hk _]]]]; (split; [lia|]); [intros; lia|exact Hs|exact Hs]. }
    destruct Hk as [Hle Hs]. unfold dl12, lookup12. rewrite Hn. cbn [bind].
    rewrite (loop_from_key c (S (N.to_nat n)) (S (N.to_nat n)) 0 key) by (try lia; intros j _ Hj; apply Hs; exact Hj).
    destruct (lookup12_loop t o c (S (N.to_nat n)) key n) eqn:E; [reflexivity|].
    exfalso. exact (lookup12_loop_safe t o c n _ W Hb key E).
  Qed.

  Lemma unmapped d : (forall i, i < n -> d < gval i 0 \/ gval i 1 < d) -> dl12 d = 0.
  Proof.
    intros H. unfold dl12, lookup12. rewrite Hn. cbn [bind].
    assert (L : forall fuel i, lookup12_loop t o d fuel i n = Some 0).
    { induction fuel as [|fuel IH]; intros i; cbn [lookup12_loop]; [reflexivity|].
      destruct (n <=? i) eqn:E; [reflexivity|]. rewrite (grp_val i 0), (grp_val i 1) by lia. cbn [bind].
      assert (E2 : ((gval i 0 <=? d) && (d <=? gval i 1)) = false) by (specialize (H i ltac:(lia)); lia). rewrite E2. apply IH. }
    rewrite L. reflexivity.
  Qed.

  (* "start - 1" is computed in 32 bits *)
  Lemma next12_body c key : 0 < c -> c < 0x10FFFF ->
    next12 t o c key = next_body n 0x10FFFF (fun i => grp t o i 0) (fun i => grp t o i 1) (fun s => (s + 0x100000000 - 1) mod 0x100000000) c key.
  Proof.
    intros Hc0 Hc1. unfold next12. rewrite Hn.
    assert (E1 : (c =? 0) = false) by lia. assert (E2 : (0x10FFFF <=? c) = false) by lia. rewrite E1, E2. reflexivity.
  Qed.
  Lemma first12 : next12 t o 0 0 = Some (gval 0 0, 0).
  Proof. unfold next12. rewrite Hn. rewrite (grp_val 0 0) by lia. reflexivity. Qed.

  Theorem cached12_eq_direct : exists m, cache_subtable (next12 t o) (lookup12 t o) 0x10FFFF (PositiveMap.empty N) = Some (Some m) /\
    forall d, d <= 0x10FFFF -> lookup12 t o d 0 = Some (cget m d).
  Proof.
    apply (seg_cached_eq_direct n (fun i => gval i 0) (fun i => gval i 1) (fun i Hi => proj1 (wf_se i Hi)) wf_sorted 0x10FFFF n_pos
             (fun i => grp t o i 0) (fun i => grp t o i 1) (fun s => (s + 0x100000000 - 1) mod 0x100000000)) with (dl := dl12).
    - intros i Hi. apply grp_val; lia.
    - intros i Hi. apply grp_val; lia.
    - intros i Hi Hp. destruct (wf_se i Hi). lia.
    - exact next12_body.
    - exact first12.
    - exact look_key12.
    - intros d _. apply unmapped.
    - lia.
  Qed.
End Fmt12.

(* a format-12 subtable whose groups are well formed in the OpenType sense *)
Definition wf12 (t : mem) (o : N) : Prop :=
  exists n, r32 t (o + 12) = Some n /\ 1 <= n /\
    (forall i, i < n -> gval t o i 0 <= gval t o i 1 /\ gval t o i 1 <= 0x10FFFF) /\
    (forall i j, i < j -> j < n -> gval t o i 1 < gval t o j 0).

Theorem cached12_eq_direct_checked t o : mem_wf t -> tlen t < S64 -> check12 t (Some o) = Some true -> wf12 t o ->
  exists m, cache_subtable (next12 t o) (lookup12 t o) 0x10FFFF (PositiveMap.empty N) = Some (Some m) /\
            forall d, d <= 0x10FFFF -> lookup12 t o d 0 = Some (cget m d).
Proof.
  intros W Hsz Hc (n & Hn & Hpos & Hse & Hso).
  destruct (check12_ok t o W Hsz Hc) as (ng & Hng & Hb). rewrite Hn in Hng. injection Hng as <-.
  exact (cached12_eq_direct t o n W Hn Hb Hpos Hse Hso).
Qed.
