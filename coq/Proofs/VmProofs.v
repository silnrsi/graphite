(* Proofs/VmProofs.v — the loader's stack analysis is sound (no accepted program underflows or runs off its end); the loader
   inverts the encoder [enc] on every instruction list that fits and ends in a return ([load_enc]), the postfix code of an
   expression tree among them; and the machine evaluates that code to the value the opcode specification gives.  What is said
   of the loader rests on the stack effect of an instruction: how many cells it needs ([need]) and by how much it moves the
   depth ([delta]). *)
From GR Require Import Base.Bytes Model.VmModel.
Local Open Scope Z_scope.

Definition need (i : instr) : Z := match i with IBin _ => 2 | ICond => 3 | IUn _ | ISetBits _ _ | IPopRet => 1 | _ => 0 end.
Definition delta (i : instr) : Z := match i with IPush _ => 1 | IBin _ | IPopRet => -1 | ICond => -2 | _ => 0 end.

Lemma need_delta i : 0 <= need i + delta i.
Proof. destruct i; cbn; lia. Qed.

Lemma step_effect i st : need i <= Z.of_nat (length st) ->
  match step i st with
  | Cont st' => Z.of_nat (length st') = Z.of_nat (length st) + delta i
  | Stop _ => True
  | Underflow => False
  end.
Proof.
  destruct i; cbn [need delta]; intros H; destruct st as [|a [|b [|c r]]]; cbn [step length] in *; try lia;
    destruct (do_bin _ _ _); cbn [length]; (lia || exact I).
Qed.

(* [fits d c]: started at depth d, every instruction of c finds the cells it needs *)
Fixpoint fits (d : Z) (c : list instr) : Prop :=
  match c with [] => True | i :: r => need i <= d /\ fits (d + delta i) r end.

Fixpoint dafter (d : Z) (c : list instr) : Z := match c with [] => d | i :: r => dafter (d + delta i) r end.

Lemma fits_app c1 : forall d c2, fits d (c1 ++ c2) <-> fits d c1 /\ fits (dafter d c1) c2.
Proof. induction c1 as [|i c1 IH]; intros d c2; cbn [app fits dafter]; [tauto|]. rewrite IH. tauto. Qed.
Lemma dafter_app c1 : forall d c2, dafter d (c1 ++ c2) = dafter (dafter d c1) c2.
Proof. induction c1 as [|i c1 IH]; intros d c2; cbn [app dafter]; [reflexivity | apply IH]. Qed.
Lemma fits_nonneg c : forall d, 0 <= d -> fits d c -> 0 <= dafter d c.
Proof. induction c as [|i c IH]; intros d Hd H; [exact Hd|]. destruct H as [Hn Hf]. pose proof (need_delta i). apply IH; [lia | exact Hf]. Qed.

Lemma fits_run c : forall st, fits (Z.of_nat (length st)) c -> run c st <> RUnderflow.
Proof.
  induction c as [|i c IH]; intros st H; [discriminate|]. destruct H as [Hn Hf]. cbn [run].
  pose proof (step_effect i st Hn) as He. destruct (step i st) as [st'| |]; [|discriminate|contradiction].
  destruct (STACK_MAX <=? length st')%nat; [discriminate|]. apply IH. rewrite He. exact Hf.
Qed.

Lemma return_run c i : is_return i = true -> forall st, run (c ++ [i]) st <> RRanOff.
Proof.
  intros Hi. induction c as [|j c IH]; intros st; cbn [app run].
  - destruct i; destruct st; discriminate.
  - destruct (step j st) as [st'| |]; try discriminate. destruct (STACK_MAX <=? length st')%nat; [discriminate | apply IH].
Qed.

Lemma load_loop_cons {fuel opc rest d acc c} : 0 <= d -> load_loop (S fuel) (opc :: rest) d acc = LLoaded c ->
  exists i n d', need i <= d /\ d' = d + delta i /\ load_loop fuel (skipn n rest) d' (i :: acc) = LLoaded c.
Proof.
  cbn [load_loop]. intros Hd H.
  destruct (MAX_OPCODE <=? opc)%N; [discriminate|]. destruct (param_sz opc) as [psz|]; [|discriminate].
  destruct (binop_of opc) as [o|]; [|destruct (unop_of opc) as [o|]];
    repeat match type of H with (match ?x with _ => _ end) = _ => destruct x eqn:?; try discriminate end;
    eexists _, psz, _; (split; [|split; [|exact H]]); cbn [need delta]; lia.
Qed.

(* the accumulator holds, latest first, a program that fits from depth 0 and ends at the depth the loader carries *)
Lemma load_loop_sound fuel : forall bc acc c, fits 0 (rev acc) -> load_loop fuel bc (dafter 0 (rev acc)) acc = LLoaded c ->
  fits 0 c /\ exists c' i, c = c' ++ [i] /\ is_return i = true.
Proof.
  induction fuel as [|fuel IH]; intros bc acc c Ha H; [discriminate|]. destruct bc as [|opc rest].
  - cbn [load_loop] in H. destruct acc as [|i a]; [discriminate|]. destruct (is_return i) eqn:Er; [|discriminate].
    injection H as <-. split; [exact Ha | exists (rev a), i; split; [reflexivity | exact Er]].
  - destruct (load_loop_cons (fits_nonneg _ _ (Z.le_refl 0) Ha) H) as (i & n & d' & Hn & -> & H').
    apply (IH (skipn n rest) (i :: acc)); cbn [rev]; [apply fits_app; repeat split; assumption | rewrite dafter_app; exact H'].
Qed.

Theorem loader_stack_sound bc c : load bc = LLoaded c -> run c [] <> RUnderflow /\ run c [] <> RRanOff.
Proof.
  intros H. destruct (load_loop_sound _ bc [] c I H) as (Hf & c' & i & -> & Hi).
  split; [apply fits_run; exact Hf | apply return_run; exact Hi].
Qed.

Fixpoint icode (e : expr) : list instr :=
  match e with
  | EConst z => [IPush z]
  | EBin o a b => icode a ++ icode b ++ [IBin o]
  | EUn o a => icode a ++ [IUn o]
  | ECond c t f => icode c ++ icode t ++ icode f ++ [ICond]
  | ESetBits m v a => icode a ++ [ISetBits m v]
  end.
Definition in32 (z : Z) : Prop := -2147483648 <= z < 2147483648.
Fixpoint wf (e : expr) : Prop :=
  match e with
  | EConst z => in32 z
  | EBin _ a b => wf a /\ wf b
  | EUn _ a => wf a
  | ECond c t f => wf c /\ wf t /\ wf f
  | ESetBits m v a => 0 <= m < 65536 /\ 0 <= v < 65536 /\ wf a
  end.
(* stack cells the code of e needs above what is already there *)
Fixpoint sdepth (e : expr) : nat :=
  match e with
  | EConst _ => 1
  | EBin _ a b => Nat.max (sdepth a) (1 + sdepth b)
  | EUn _ a => sdepth a
  | ECond c t f => Nat.max (sdepth c) (Nat.max (1 + sdepth t) (2 + sdepth f))
  | ESetBits _ _ a => sdepth a
  end.

Lemma sdepth_pos e : (1 <= sdepth e)%nat.
Proof. induction e; cbn [sdepth]; lia. Qed.

Lemma run_cont i rest st st' : step i st = Cont st' -> (length st' < STACK_MAX)%nat -> run (i :: rest) st = run rest st'.
Proof. intros Hs Hl. cbn [run]. rewrite Hs, (proj2 (Nat.leb_gt _ _) Hl). reflexivity. Qed.

Lemma run_app e : forall rest st, (length st + sdepth e < STACK_MAX)%nat ->
  run (icode e ++ rest) st = match eval e with Some v => run rest (v :: st) | None => RDone (died_early, 0) end.
Proof.
  induction e as [z|o a IHa b IHb|o a IHa|c IHc t IHt f IHf|m v a IHa]; intros rest st Hd; cbn [icode eval sdepth] in *;
    rewrite <- ?app_assoc.
  - apply run_cont; [reflexivity | cbn [length]; lia].
  - rewrite IHa by lia. destruct (eval a) as [x|]; [|reflexivity].
    rewrite IHb by (cbn [length]; lia). destruct (eval b) as [y|]; [|reflexivity].
    cbn [app]. destruct (do_bin o x y) as [r|] eqn:E; [|cbn [run step]; rewrite E; reflexivity].
    apply run_cont; [cbn [step]; rewrite E; reflexivity | cbn [length]; lia].
  - pose proof (sdepth_pos a). rewrite IHa by lia. destruct (eval a) as [x|]; [|reflexivity].
    apply run_cont; [reflexivity | cbn [length]; lia].
  - rewrite IHc by lia. destruct (eval c) as [x|]; [|reflexivity].
    rewrite IHt by (cbn [length]; lia). destruct (eval t) as [y|]; [|reflexivity].
    rewrite IHf by (cbn [length]; lia). destruct (eval f) as [z|]; [|reflexivity].
    apply run_cont; [reflexivity | cbn [length]; lia].
  - pose proof (sdepth_pos a). rewrite IHa by lia. destruct (eval a) as [x|]; [|reflexivity].
    apply run_cont; [reflexivity | cbn [length]; lia].
Qed.

Theorem run_evaluates e : (sdepth e < STACK_MAX)%nat ->
  run (icode e ++ [IPopRet]) [] = RDone (match eval e with Some v => (finished, v) | None => (died_early, 0) end).
Proof.
  intros H. rewrite run_app by (cbn [length]; lia). destruct (eval e); reflexivity.
Qed.

Definition enc (i : instr) : list N :=
  match i with
  | INop => [0x00%N] | IPush z => push_code z | IBin o => [binop_code o] | IUn o => [unop_code o] | ICond => [0x0F%N]
  | ISetBits m v => [0x41%N; byte_of (m / 256); byte_of m; byte_of (v / 256); byte_of v]
  | IPopRet => [0x30%N] | IRetZero => [0x31%N] | IRetTrue => [0x32%N]
  end.
Definition encodable (i : instr) : Prop :=
  match i with IPush z => in32 z | ISetBits m v => 0 <= m < 65536 /\ 0 <= v < 65536 | _ => True end.

Lemma byte_of_val z : Z.of_N (byte_of z) = z mod 256.
Proof. unfold byte_of. rewrite Z2N.id; [reflexivity|]. apply Z.mod_pos_bound. lia. Qed.

Lemma byte_lt z : (byte_of z < 256)%N.
Proof. unfold byte_of. pose proof (Z.mod_pos_bound z 256 ltac:(lia)). lia. Qed.

Lemma binop_roundtrip o : binop_of (binop_code o) = Some o /\ (MAX_OPCODE <=? binop_code o)%N = false /\ param_sz (binop_code o) = Some 0%nat.
Proof. destruct o; repeat split; reflexivity. Qed.
Lemma unop_roundtrip o : unop_of (unop_code o) = Some o /\ binop_of (unop_code o) = None /\ (MAX_OPCODE <=? unop_code o)%N = false /\ param_sz (unop_code o) = Some 0%nat.
Proof. destruct o; repeat split; reflexivity. Qed.

(* the converse of load_loop_cons *)
Lemma enc_decode i rest fuel d acc : encodable i -> need i <= d ->
  load_loop (S fuel) (enc i ++ rest) d acc = load_loop fuel rest (d + delta i) (i :: acc).
Proof.
  intros He Hn. destruct i as [|z|o|o| |m v| | |]; cbn [enc encodable need delta] in *; rewrite ?Z.add_0_r.
  - reflexivity.
  - unfold in32 in He. unfold push_code.
    destruct ((-128 <=? z) && (z <? 128)) eqn:E1; [|destruct ((0 <=? z) && (z <? 256)) eqn:E2; [|destruct ((-32768 <=? z) && (z <? 32768)) eqn:E3;
      [|destruct ((0 <=? z) && (z <? 65536)) eqn:E4]]];
      cbn [app load_loop]; cbn; do 3 f_equal; unfold sbyte, wrap32;
      repeat (rewrite N2Z.inj_add || rewrite N2Z.inj_mul); rewrite ?byte_of_val; cbn [Z.of_N];
      repeat match goal with |- context [if ?c then _ else _] => destruct c eqn:? end; Z.to_euclidean_division_equations; lia.
  - destruct (binop_roundtrip o) as (A & B & C). cbn [app load_loop]. rewrite B, C.
    rewrite A, (proj2 (Z.leb_gt (d - 1) 0)) by lia. reflexivity.
  - destruct (unop_roundtrip o) as (A & A' & B & C). cbn [app load_loop]. rewrite B, C.
    rewrite A', A, (proj2 (Z.leb_gt d 0)) by lia. reflexivity.
  - cbn. rewrite (proj2 (Z.leb_gt (d - 2) 0)) by lia. reflexivity.
  - cbn. rewrite (proj2 (Z.leb_gt d 0)) by lia.
    do 3 f_equal; rewrite N2Z.inj_add, N2Z.inj_mul, !byte_of_val; cbn [Z.of_N]; Z.to_euclidean_division_equations; lia.
  - cbn. rewrite (proj2 (Z.ltb_ge (d - 1) 0)) by lia. reflexivity.
  - reflexivity.
  - reflexivity.
Qed.

Lemma decode_list c : forall rest fuel d acc, Forall encodable c -> fits d c ->
  load_loop (length c + fuel) (flat_map enc c ++ rest) d acc = load_loop fuel rest (dafter d c) (rev c ++ acc).
Proof.
  induction c as [|i c IH]; intros rest fuel d acc He Hf; [reflexivity|].
  inversion He; subst. destruct Hf as [Hn Hf]. cbn [length Nat.add flat_map rev dafter]. rewrite <- !app_assoc.
  rewrite enc_decode, IH by assumption. reflexivity.
Qed.

Lemma enc_length i : (1 <= length (enc i))%nat.
Proof. destruct i; cbn [enc length]; try lia. unfold push_code. repeat match goal with |- context [if ?c then _ else _] => destruct c end; cbn [length]; lia. Qed.

Theorem load_enc c i : Forall encodable (c ++ [i]) -> fits 0 (c ++ [i]) -> is_return i = true -> load (flat_map enc (c ++ [i])) = LLoaded (c ++ [i]).
Proof.
  intros He Hf Hi. unfold load. set (p := c ++ [i]) in *.
  assert (Hl : (length p <= length (flat_map enc p))%nat).
  { clear. induction p as [|j p IH]; cbn [flat_map length]; [lia|]. rewrite app_length. pose proof (enc_length j). lia. }
  replace (S (length (flat_map enc p))) with (length p + S (length (flat_map enc p) - length p))%nat by lia.
  rewrite <- (app_nil_r (flat_map enc p)), decode_list by assumption.
  subst p. rewrite rev_app_distr. cbn [rev app load_loop]. rewrite Hi, app_nil_r, rev_involutive. reflexivity.
Qed.

Lemma code_enc e : code e = flat_map enc (icode e).
Proof. induction e; cbn [code icode]; rewrite ?flat_map_app; cbn [flat_map enc app]; rewrite ?app_nil_r; congruence. Qed.

Lemma icode_fits e : forall d c, 0 <= d -> fits d (icode e ++ c) <-> fits (d + 1) c.
Proof.
  induction e as [z|o a IHa b IHb|o a IHa|c0 IHc t IHt f IHf|m v a IHa]; intros d c Hd; cbn [icode]; rewrite <- ?app_assoc.
  - cbn. tauto.
  - rewrite IHa, IHb by lia. cbn. replace (d + 1 + 1 + -1) with (d + 1) by lia. intuition lia.
  - rewrite IHa by lia. cbn. rewrite Z.add_0_r. intuition lia.
  - rewrite IHc, IHt, IHf by lia. cbn. replace (d + 1 + 1 + 1 + -2) with (d + 1) by lia. intuition lia.
  - rewrite IHa by lia. cbn. rewrite Z.add_0_r. intuition lia.
Qed.

Lemma wf_encodable e : wf e -> Forall encodable (icode e).
Proof.
  induction e; cbn [wf icode]; intros H; rewrite ?Forall_app; repeat split; try (constructor; [cbn [encodable]; tauto | constructor]); tauto.
Qed.

Theorem load_code e : wf e -> load (code e ++ [0x30%N]) = LLoaded (icode e ++ [IPopRet]).
Proof.
  intros Hw. change [0x30%N] with (flat_map enc [IPopRet]). rewrite code_enc, <- flat_map_app. apply load_enc.
  - apply Forall_app. split; [exact (wf_encodable e Hw) | repeat constructor].
  - apply icode_fits; cbn; lia.
  - reflexivity.
Qed.
