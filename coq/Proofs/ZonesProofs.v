(* Proofs/ZonesProofs.v — invariants of the free-interval set: sorted, disjoint, inside its bounds; inserting never changes
   what is covered, removing never adds and really removes.  Both loops work interval by interval: each interval of the list is
   cut into a few pieces of itself, and everything follows from what the pieces of ONE interval look like. *)
From GR Require Import Base.Bytes Model.ZonesModel.
Local Open Scope Z_scope.

Fixpoint wf (lo : Z) (l : list excl) : Prop :=
  match l with [] => True | i :: r => lo <= ex i /\ ex i <= exm i /\ wf (exm i) r end.
Definition below (hi : Z) (l : list excl) : Prop := Forall (fun i => exm i <= hi) l.
Definition covered (l : list excl) (p : Z) : Prop := exists i, In i l /\ ex i <= p <= exm i.
(* strict version: no zero-width interval (true of every zone of non-zero width) *)
Fixpoint wfs (lo : Z) (l : list excl) : Prop :=
  match l with [] => True | i :: r => lo <= ex i /\ ex i < exm i /\ wfs (exm i) r end.

Lemma covered_Exists l p : covered l p <-> Exists (fun i => ex i <= p <= exm i) l.
Proof. symmetry. apply Exists_exists. Qed.
Lemma covered_nil p : covered [] p <-> False.
Proof. rewrite covered_Exists. apply Exists_nil. Qed.
Lemma covered_cons i r p : covered (i :: r) p <-> (ex i <= p <= exm i) \/ covered r p.
Proof. rewrite !covered_Exists. apply Exists_cons. Qed.
Lemma covered_app a b p : covered (a ++ b) p <-> covered a p \/ covered b p.
Proof. rewrite !covered_Exists. apply Exists_app. Qed.

Definition nonempty (i : excl) : Prop := ex i < exm i.
Lemma wfs_iff : forall l lo, wfs lo l <-> wf lo l /\ Forall nonempty l.
Proof.
  induction l as [|i r IH]; intros lo; cbn [wfs wf]; [intuition constructor|].
  rewrite IH, Forall_cons_iff. unfold nonempty. intuition lia.
Qed.

Lemma wf_weaken {lo lo' l} : lo' <= lo -> wf lo l -> wf lo' l.
Proof. destruct l as [|i r]; cbn [wf]; [tauto|]. intros H [A [B C]]. repeat split; try assumption; lia. Qed.
Lemma wf_In {l lo i} : wf lo l -> In i l -> lo <= ex i <= exm i.
Proof.
  revert lo. induction l as [|j r IH]; intros lo W H; [destruct H|]. destruct W as (A & B & C), H as [<-|H]; [lia|]. specialize (IH _ C H). lia.
Qed.

Lemma wf_app b r : wf b r -> forall ps lo, lo <= b -> wf lo ps -> below b ps -> wf lo (ps ++ r).
Proof.
  intros Hr. induction ps as [|j ps IH]; intros lo Hlo W Bl; cbn [app]; [exact (wf_weaken Hlo Hr)|].
  destruct W as (A & B & C). inversion Bl; subst. repeat split; try assumption. apply IH; assumption.
Qed.

Definition pieces (i : excl) (ps : list excl) : Prop := wf (ex i) ps /\ below (exm i) ps /\ (nonempty i -> Forall nonempty ps).

(* [keeps lo l l']: l' can take the place of l under the invariant: it is sorted from lo, lies under every bound l lies under, and has
   no empty interval if l has none *)
Definition keeps (lo : Z) (l l' : list excl) : Prop :=
  wf lo l' /\ (forall hi, below hi l -> below hi l') /\ (Forall nonempty l -> Forall nonempty l').

Lemma pieces_inv i r ps r' lo : lo <= ex i -> ex i <= exm i -> pieces i ps -> keeps (exm i) r r' -> keeps lo (i :: r) (ps ++ r').
Proof.
  intros A B (Pw & Pb & Pn) (Rw & Rb & Rn). repeat apply conj.
  - apply (wf_app _ _ Rw); [lia | exact (wf_weaken A Pw) | exact Pb].
  - intros hi Hb. inversion Hb; subst. apply Forall_app. split; [refine (Forall_impl _ _ Pb); intros j Hj; lia | apply Rb; assumption].
  - intros Hn. inversion Hn; subst. apply Forall_app. auto.
Qed.

(* a concrete list of pieces: everything unfolds to comparisons of end points *)
Ltac endpoints :=
  unfold pieces, below, nonempty, set_x, set_xm, add_w; cbn [wf ex exm fst snd]; rewrite ?Forall_cons_iff, ?Forall_nil_iff; cbn [ex exm];
  repeat apply conj; try lia; intros p; rewrite ?covered_cons, ?covered_nil; cbn [ex exm]; lia.

(* both loops compare an interval j with two points p <= q (insert: e with the ends of i; remove: i with the ends of the range) *)
Lemma oc_pair j p q : p <= q ->
  oc_and_nonzero (oc j p) (oc j q) = (exm j <=? p) || (q <? ex j) /\
  (exm j <=? p = false -> q <? ex j = false -> oc_xor (oc j p) (oc j q) = (exm j <=? q, p <? ex j)).
Proof.
  unfold oc, oc_and_nonzero, oc_xor.
  destruct (Z.leb_spec (exm j) p), (Z.ltb_spec q (ex j)), (Z.leb_spec (exm j) q), (Z.ltb_spec p (ex j)); try lia; split; (reflexivity || discriminate).
Qed.

(* The loop of Zones::insert works interval by interval: what it makes of i is what it makes of the one-interval list [i], and
   it goes on over the rest with some e'.  Where the C++ leaves the loop, e' is an emptied e, which ends it as well. *)
Lemma ins_stop e l : exm e <= ex e -> ins e l = l.
Proof. destruct l as [|i r]; cbn [ins]; [reflexivity|]. destruct (Z.ltb_spec (ex e) (exm e)); [lia | reflexivity]. Qed.

Lemma ins_cons e i r : exists e', ins e (i :: r) = ins e [i] ++ ins e' r.
Proof.
  pose proof (ins_stop (set_x e (exm e)) r (Z.le_refl _)) as Stop. cbn [ins].
  destruct (negb (ex e <? exm e)); [exists (set_x e (exm e)); rewrite Stop; reflexivity|].
  destruct (oc_and_nonzero _ _); [eexists; reflexivity|].
  destruct (oc_xor _ _) as [[|] [|]].
  1,2: (* i reaches beyond e: the loop ends here *)
    destruct (separated (exm e) (ex i)), (separated (exm e) (exm i)); exists (set_x e (exm e)); rewrite Stop; reflexivity.
  all: destruct (separated (exm i) (ex e)), (separated (ex i) (ex e)); eexists; reflexivity.
Qed.

Lemma ins_pieces e i : ex i <= exm i -> pieces i (ins e [i]) /\ forall p, covered (ins e [i]) p <-> ex i <= p <= exm i.
Proof.
  intros Hi. cbn [ins]. destruct (Z.ltb_spec (ex e) (exm e)); cbn [negb]; [|endpoints].
  destruct (oc_pair e (ex i) (exm i) Hi) as [-> Hx].
  destruct (Z.leb_spec (exm e) (ex i)); cbn [orb]; [endpoints|]. destruct (Z.ltb_spec (exm i) (ex e)); [endpoints|].
  rewrite Hx by reflexivity. unfold separated. destruct (Z.leb_spec (exm e) (exm i)), (Z.ltb_spec (ex i) (ex e)).
  - (* i covers e *) destruct (Z.eqb_spec (exm e) (exm i)); cbn [negb]; endpoints.
  - (* e overlaps i on the left *)
    destruct (Z.eqb_spec (exm e) (ex i)); cbn [negb]; [|destruct (Z.eqb_spec (exm e) (exm i)); cbn [negb]]; endpoints.
  - (* e overlaps i on the right *)
    destruct (Z.eqb_spec (exm i) (ex e)); cbn [negb]; [|destruct (Z.eqb_spec (ex i) (ex e)); cbn [negb]]; endpoints.
  - (* e covers i *) endpoints.
Qed.

Lemma ins_spec {l e lo} : wf lo l -> keeps lo l (ins e l) /\ forall p, covered (ins e l) p <-> covered l p.
Proof.
  revert e lo. induction l as [|i r IH]; intros e lo W; [cbn [ins]; unfold keeps; tauto|]. destruct W as (A & B & C).
  destruct (ins_cons e i r) as [e' ->]. destruct (ins_pieces e i B) as (P & Pc), (IH e' _ C) as (R & Rc).
  split; [exact (pieces_inv i r _ _ lo A B P R)|]. intros p. rewrite covered_app, covered_cons, Pc, Rc. reflexivity.
Qed.

(* where the C++ leaves the loop, going on would change nothing: the rest of the list lies above the range *)
Lemma rem_above x xm : x < xm -> forall r lo, wf lo r -> xm < lo -> rem x xm r = r.
Proof.
  induction r as [|i r IH]; intros lo W Hlo; [reflexivity|]. destruct W as (A & B & C). cbn [rem].
  rewrite (proj1 (oc_pair i x xm ltac:(lia))), (proj2 (Z.ltb_lt xm (ex i))), orb_true_r by lia. rewrite (IH _ C) by lia. reflexivity.
Qed.

Lemma rem_cons x xm i r : x < xm -> wf (exm i) r -> rem x xm (i :: r) = rem x xm [i] ++ rem x xm r.
Proof.
  intros Hx Hr. cbn [rem]. destruct (oc_pair i x xm ltac:(lia)) as [-> Ho].
  destruct (Z.leb_spec (exm i) x); [reflexivity|]. destruct (Z.ltb_spec xm (ex i)); [reflexivity|]. rewrite Ho by reflexivity.
  destruct (Z.leb_spec (exm i) xm), (x <? ex i), (separated (ex i) x); cbn [app]; rewrite ?(rem_above x xm Hx r (exm i) Hr) by lia; reflexivity.
Qed.

(* what is left of i: pieces of it, none inside the open range; one ends at x only if it is a proper rest of i (or i itself ended
   there), one starts at xm only if i went on beyond xm; outside the closed range nothing is lost *)
Lemma rem_pieces x xm i : x < xm -> ex i <= exm i -> pieces i (rem x xm [i]) /\
  forall p, (covered (rem x xm [i]) p -> ex i <= p <= exm i /\ (p <= x \/ xm <= p) /\ (p = x -> ex i < x \/ exm i <= x) /\ (p = xm -> xm < exm i)) /\
            (ex i <= p <= exm i -> p < x \/ xm < p -> covered (rem x xm [i]) p).
Proof.
  intros Hx Hi. cbn [rem]. destruct (oc_pair i x xm ltac:(lia)) as [-> Ho]. unfold separated.
  destruct (Z.leb_spec (exm i) x); cbn [orb]; [endpoints|]. destruct (Z.ltb_spec xm (ex i)); [endpoints|]. rewrite Ho by reflexivity.
  destruct (Z.leb_spec (exm i) xm), (Z.ltb_spec x (ex i)); try (destruct (Z.eqb_spec (ex i) x); cbn [negb]); endpoints.
Qed.

Lemma rem_spec {l x xm lo} : x < xm -> wf lo l ->
  keeps lo l (rem x xm l) /\ forall p, covered (rem x xm l) p <-> Exists (fun i => covered (rem x xm [i]) p) l.
Proof.
  intros Hx. revert lo. induction l as [|i r IH]; intros lo W.
  { cbn [rem]. split; [unfold keeps; tauto|]. intros p. rewrite covered_nil, Exists_nil. reflexivity. }
  destruct W as (A & B & C). rewrite (rem_cons x xm i r Hx C).
  destruct (rem_pieces x xm i Hx B) as (P & _), (IH _ C) as (R & Rc).
  split; [exact (pieces_inv i r _ _ lo A B P R)|]. intros p. rewrite covered_app, Rc, Exists_cons. reflexivity.
Qed.

Lemma rem_keeps : forall l x xm lo p, wf lo l -> x < xm -> covered l p -> (p < x \/ xm < p) -> covered (rem x xm l) p.
Proof.
  intros l x xm lo p W Hx (i & Hi & Hp) Hout. apply (rem_spec Hx W), Exists_exists. exists i. split; [exact Hi|].
  apply (rem_pieces x xm i Hx); [lia | exact Hp | exact Hout].
Qed.

Definition ZInv (z : zones) : Prop :=
  wf (z_pos z) (z_excl z) /\ below (z_posm z) (z_excl z) /\ (z_pos z < z_posm z -> wfs (z_pos z) (z_excl z)).
Definition zcovered (z : zones) (p : Z) : Prop := covered (z_excl z) p.

Lemma ZInv_In z i : ZInv z -> In i (z_excl z) -> z_pos z <= ex i <= exm i /\ exm i <= z_posm z /\ (z_pos z < z_posm z -> ex i < exm i).
Proof.
  intros (W & Bl & S) Hi. split; [exact (wf_In W Hi)|]. split; [exact (proj1 (Forall_forall _ _) Bl i Hi)|].
  intros Hnd. apply S, wfs_iff in Hnd. exact (proj1 (Forall_forall _ _) (proj2 Hnd) i Hi).
Qed.

Lemma ZInv_excl z l : ZInv z -> keeps (z_pos z) (z_excl z) l -> ZInv (mkzones (z_pos z) (z_posm z) (z_mlen z) (z_mwt z) l).
Proof.
  intros (W & Bl & S) (A & B & C). repeat split; cbn [z_pos z_posm z_excl]; [exact A | exact (B _ Bl) |].
  intros Hnd. apply wfs_iff. split; [exact A|]. apply C. apply (wfs_iff (z_excl z) (z_pos z)). exact (S Hnd).
Qed.

Lemma insert_inv z e : ZInv z -> ZInv (insert z e).
Proof.
  intros H. unfold insert. destruct (_ <=? _); [exact H|]. apply (ZInv_excl z _ H), ins_spec, H.
Qed.
Lemma insert_cover z e p : ZInv z -> (zcovered (insert z e) p <-> zcovered z p).
Proof.
  unfold ZInv, insert, zcovered. intros (W & _). destruct (_ <=? _); [reflexivity|]. apply (ins_spec W).
Qed.
Lemma remove_inv z x xm : ZInv z -> ZInv (remove z x xm).
Proof.
  intros H. unfold remove. destruct (Z.leb_spec (Z.min xm (z_posm z)) (Z.max x (z_pos z))) as [Hle|Hlt]; [exact H|].
  apply (ZInv_excl z _ H), rem_spec; [exact Hlt | apply H].
Qed.
Lemma remove_cover {z x xm p} : ZInv z -> zcovered (remove z x xm) p -> zcovered z p /\ (z_pos z < z_posm z -> ~ (x < p < xm)).
Proof.
  intros H. unfold remove, zcovered. destruct (Z.leb_spec (Z.min xm (z_posm z)) (Z.max x (z_pos z))) as [Hle|Hlt].
  - (* the clamped range is empty: nothing is removed, and nothing of a zone of non-zero width lies strictly inside (x, xm) *)
    intros Hc. split; [exact Hc|]. destruct Hc as (i & Hi & Hp). pose proof (ZInv_In z i H Hi). lia.
  - intros Hc. apply (rem_spec Hlt (proj1 H)), Exists_exists in Hc. destruct Hc as (i & Hi & Hc).
    pose proof (ZInv_In z i H Hi) as Hb.
    destruct (proj1 (proj2 (rem_pieces _ _ i Hlt ltac:(lia)) p) Hc) as (a & b & c & d).
    (* at a clamped end the end point itself is removed as well: clauses c and d *)
    split; [exists i; split; assumption | lia].
Qed.

Lemma initialise_inv sd xmin xmax mlen mwt a0 : xmin <= xmax -> ZInv (initialise sd xmin xmax mlen mwt a0).
Proof.
  unfold ZInv, initialise, below.
  destruct sd; cbn [z_pos z_posm z_excl wf wfs ex exm weighted_sd weighted_xy]; rewrite Forall_cons_iff, Forall_nil_iff; cbn [exm]; lia.
Qed.

Lemma zapply_inv z o : ZInv z -> ZInv (zapply z o).
Proof.
  intros H. destruct o; cbn [zapply]; unfold exclude, exclude_with_margins.
  - apply remove_inv; exact H.
  - apply insert_inv, insert_inv, remove_inv; exact H.
  - apply insert_inv; exact H.
Qed.

Lemma zapply_cover z o p : ZInv z -> zcovered (zapply z o) p -> zcovered z p.
Proof.
  intros H. destruct o; cbn [zapply]; unfold exclude, exclude_with_margins.
  - intros Hc. exact (proj1 (remove_cover H Hc)).
  - pose proof (remove_inv z xmin xmax H) as H1. rewrite (insert_cover _ _ p (insert_inv _ _ H1)), (insert_cover _ _ p H1).
    intros Hc. exact (proj1 (remove_cover H Hc)).
  - intros Hc. exact (proj1 (insert_cover _ _ p H) Hc).
Qed.

Theorem zones_reachable_inv ops : forall z, ZInv z -> ZInv (fold_left zapply ops z).
Proof. induction ops as [|o r IH]; intros z H; cbn [fold_left]; [exact H | apply IH, zapply_inv; exact H]. Qed.

Lemma test_position_inside zerox e origin : ex e <= exm e -> ex e <= test_position zerox e origin <= exm e.
Proof.
  unfold test_position.
  destruct (esm e <? 0).
  - (* one of the two ends, or an origin strictly between them *)
    destruct (Z.ltb_spec (ex e) origin), (Z.ltb_spec origin (exm e)); cbn [andb]; cbv zeta; repeat destruct (_ <? _); lia.
  - destruct (Z.ltb_spec (zerox e origin) (ex e)); [lia|]. destruct (Z.ltb_spec (exm e) (zerox e origin)); lia.
Qed.
