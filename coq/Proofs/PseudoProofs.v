(* Proofs/PseudoProofs.v — the pseudo-glyph map is consulted exactly when the cmap leaves a character unmapped, and answers with the entry
   of that code point, whatever its plane. *)
From GR Require Import Base.Bytes Model.PseudoModel.
Local Open Scope N_scope.

Lemma find_pseudo_absent pm u : ~ In u (map fst pm) -> find_pseudo pm u = 0.
Proof.
  induction pm as [|[c g] r IH]; intros H; [reflexivity|]. cbn [find_pseudo map fst In] in *.
  destruct (N.eqb_spec c u) as [->|Hne]; [exfalso; apply H; left; reflexivity|]. apply IH. intros Hin. apply H. right. exact Hin.
Qed.

Lemma find_pseudo_found pm u g : NoDup (map fst pm) -> In (u, g) pm -> find_pseudo pm u = g.
Proof.
  induction pm as [|[c g'] r IH]; intros Hnd Hin; [destruct Hin|]. cbn [find_pseudo map fst] in *. inversion Hnd as [|? ? Hnotin Hnd']; subst.
  destruct Hin as [Heq|Hin].
  - injection Heq as -> ->. rewrite N.eqb_refl. reflexivity.
  - destruct (N.eqb_spec c u) as [->|Hne]; [|apply IH; assumption].
    exfalso. apply Hnotin. apply (in_map fst) in Hin. exact Hin.
Qed.

Lemma upto_nul_nonzero us : Forall (fun u => u <> 0) (upto_nul us).
Proof.
  induction us as [|u r IH]; cbn [upto_nul]; [constructor|]. destruct (N.eqb_spec u 0); [constructor|]. constructor; assumption.
Qed.
Lemma upto_nul_prefix us : exists rest, us = upto_nul us ++ rest /\ (rest = [] \/ hd 1 rest = 0).
Proof.
  induction us as [|u r (rest & E & H)]; cbn [upto_nul]; [exists []; auto|].
  destruct (N.eqb_spec u 0) as [->|Hne]; [exists (0 :: r); auto|].
  exists rest. split; [cbn [app]; f_equal; exact E|exact H].
Qed.
Lemma text_glyphs_spec cmapf pm us : length (text_glyphs cmapf pm us) = length (upto_nul us) /\
  forall i u, nth_error (upto_nul us) i = Some u -> nth_error (text_glyphs cmapf pm us) i = Some (initial_glyph (cmapf u) pm u).
Proof.
  unfold text_glyphs. split; [apply map_length|]. intros i u H. rewrite nth_error_map, H. reflexivity.
Qed.
