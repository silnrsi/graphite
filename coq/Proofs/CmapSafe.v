(* Proofs/CmapSafe.v — for ARBITRARY table bytes: once CheckCmapSubtable4/12 accepted a subtable, the lookup
   functions never read outside the table (no trap), for every code point (and every in-range key). *)
From GR Require Import Base.MemFacts Model.CmapModel.
From Coq Require Import ZifyN ZifyBool.
Local Open Scope N_scope.

Lemma check12_ok t o : mem_wf t -> tlen t < S64 -> check12 t (Some o) = Some true ->
  exists ng, r32 t (o + 12) = Some ng /\ o + 16 + 12 * ng <= tlen t.
Proof.
  intros W Hsz. unfold check12.
  destruct (sub64 (tlen t) o <? 6) eqn:E1; [discriminate|].
  destruct (r16 t o) as [fmt|] eqn:Ef; [|discriminate]. cbn [bind].
  destruct (negb (fmt =? 12)); [discriminate|].
  destruct (sub64 (tlen t) o <? 28) eqn:E2; [discriminate|].
  destruct (r32 t (o + 4)) as [len|]; [|discriminate]. cbn [bind].
  destruct (sub64 (tlen t) o <? len) eqn:E3; [discriminate|].
  destruct (len <? 28) eqn:E4; [discriminate|].
  destruct (r32 t (o + 12)) as [ng|]; [|discriminate]. cbn [bind].
  destruct (_ || _) eqn:E5; [discriminate|].
  exists ng. split; [reflexivity|].
  apply (r16_inside t _ _ W) in Ef. unfold sub64, S64 in *. lia.
Qed.

Lemma grp_some t o ng i k : mem_wf t -> o + 16 + 12 * ng <= tlen t -> i < ng -> k < 3 -> exists v, grp t o i k = Some v.
Proof. intros W H Hi Hk. apply r32_some; [exact W|lia]. Qed.

Lemma lookup12_loop_safe t o c ng fuel : mem_wf t -> o + 16 + 12 * ng <= tlen t -> forall i, lookup12_loop t o c fuel i ng <> None.
Proof.
  intros W H. induction fuel as [|fuel IH]; intros i; cbn [lookup12_loop]; [discriminate|].
  destruct (ng <=? i) eqn:E; [discriminate|].
  destruct (grp_some t o ng i 0 W H) as [s ->]; [lia|lia|]. destruct (grp_some t o ng i 1 W H) as [e ->]; [lia|lia|]. cbn [bind].
  destruct ((s <=? c) && (c <=? e)); [|apply IH]. destruct (grp_some t o ng i 2 W H) as [g ->]; [lia|lia|]. discriminate.
Qed.

Theorem lookup12_safe t o : mem_wf t -> tlen t < S64 -> check12 t (Some o) = Some true -> forall c key, lookup12 t o c key <> None.
Proof.
  intros W Hsz Hc c key. destruct (check12_ok t o W Hsz Hc) as (ng & Hn & Hb).
  unfold lookup12. rewrite Hn. apply lookup12_loop_safe; [exact W|exact Hb].
Qed.

Definition ok4 (t : mem) (o nseg len : N) : Prop :=
  w4 t o 3 = Some (nseg * 2) \/ w4 t o 3 = Some (nseg * 2 + 1).

Lemma check4_ok t o : mem_wf t -> tlen t < S64 -> check4 t (Some o) = Some true ->
  exists sc len, w4 t o 3 = Some sc /\ w4 t o 1 = Some len /\ 0 < sc / 2 /\ 16 + 8 * (sc / 2) <= len /\ o + len <= tlen t.
Proof.
  intros W Hsz. unfold check4.
  destruct (sub64 (tlen t) o <? 6) eqn:E1; [discriminate|].
  destruct (r16 t o) as [fmt|] eqn:Ef; [|discriminate]. cbn [bind].
  destruct (negb (fmt =? 4)); [discriminate|].
  destruct (sub64 (tlen t) o <? 16) eqn:E2; [discriminate|].
  destruct (r16 t (o + 2)) as [len|] eqn:El; [|discriminate]. cbn [bind].
  destruct (sub64 (tlen t) o <? len) eqn:E3; [discriminate|].
  destruct (len <? 16) eqn:E4; [discriminate|].
  destruct (r16 t (o + 6)) as [sc|] eqn:Es; [|discriminate]. cbn [bind].
  destruct (_ || _) eqn:E5; [discriminate|].
  exists sc, len. apply (r16_inside t _ _ W) in Ef.
  split; [exact Es|]. split; [exact El|]. unfold sub64, S64 in *. lia.
Qed.

Lemma w4_inside t o len k : mem_wf t -> o + len <= tlen t -> 2 * k + 2 <= len ->
  w4 t o k = Some (match w4 t o k with Some v => v | None => 0 end).
Proof. intros W Hin H. unfold w4. destruct (r16_some t (o + 2 * k) W ltac:(lia)) as [v ->]. reflexivity. Qed.

Section F4.
  Variable t : mem. Variable o nseg len : N.
  Hypothesis Hlen : 16 + 8 * nseg <= len.

  (* the words of the subtable through a total getter *)
  Variable wv : N -> N.
  Hypothesis w4_val : forall k, 2 * k + 2 <= len -> w4 t o k = Some (wv k).

  (* one statement for arbitrary words (the search stays in range) and for sorted end codes (it finds the first one at or above c) *)
  Lemma bsearch4_spec c : forall fuel left n, 7 <= left -> left + n <= 7 + nseg ->
    match bsearch4 t o c fuel left n with
    | Some (Some (mid, ce)) => left <= mid /\ mid < left + n /\ ce = wv mid /\ c <= wv mid /\ (mid = left \/ wv (mid - 1) < c)
    | Some None => (forall a b, 7 <= a -> a <= b -> b < 7 + nseg -> wv a <= wv b) -> n < 2 ^ N.of_nat fuel ->
                   forall k, left <= k -> k < left + n -> wv k < c
    | None => False
    end.
  Proof.
    induction fuel as [|fuel IH]; intros left n Hl Hr.
    - intros _ Hn k H1' H2. lia.
    - cbn [bsearch4]. destruct (n =? 0) eqn:E0; [intros _ _ k Hk1 Hk2; lia|].
      assert (Hpow : 2 ^ N.of_nat (S fuel) = 2 * 2 ^ N.of_nat fuel) by (rewrite Nat2N.inj_succ, N.pow_succ_r'; reflexivity).
      set (P := 2 ^ N.of_nat fuel) in *. clearbody P.
      rewrite (w4_val (left + n / 2)) by lia. cbn [bind].
      destruct (c <=? wv (left + n / 2)) eqn:Ec.
      + destruct (n / 2 =? 0) eqn:E1.
        * repeat split; try lia.
        * rewrite (w4_val (left + n / 2 - 1)) by lia. cbn [bind].
          destruct (wv (left + n / 2 - 1) <? c) eqn:Ep.
          -- repeat split; try lia.
          -- specialize (IH left (n / 2) Hl ltac:(lia)).
             destruct (bsearch4 t o c fuel left (n / 2)) as [[[mid ce]|]|]; [| |exact IH].
             ++ destruct IH as (I1 & I2 & I3 & I4 & I5). repeat split; lia.
             ++ intros Hm Hn. specialize (IH Hm ltac:(lia) (left + n / 2 - 1) ltac:(lia) ltac:(lia)). lia.
      + specialize (IH (left + n / 2 + 1) (n - (n / 2 + 1)) ltac:(lia) ltac:(lia)).
        destruct (bsearch4 t o c fuel (left + n / 2 + 1) (n - (n / 2 + 1))) as [[[mid ce]|]|]; [| |exact IH].
        * destruct IH as (I1 & I2 & I3 & I4 & I5). repeat split; try lia.
          right. destruct I5 as [->|I5]; [|exact I5]. replace (left + n / 2 + 1 - 1) with (left + n / 2) by lia. lia.
        * intros Hm Hn k Hk1 Hk2. destruct (N.le_gt_cases k (left + n / 2)) as [Hle|Hgt]; [|apply (IH Hm); lia].
          pose proof (Hm k (left + n / 2) ltac:(lia) Hle ltac:(lia)). lia.
  Qed.

  Theorem lookup4_body_safe c key sc : sc / 2 = nseg -> w4 t o 3 = Some sc -> w4 t o 1 = Some len -> key < nseg ->
    lookup4 t o c key <> None.
  Proof.
    intros Hsc H3 H1 Hk. unfold lookup4. rewrite H3. cbn [bind]. rewrite Hsc.
    (* the keyed shortcut and the search both come up with the word index of an end code; every word read from there on lies
       within 16 + 8 * nseg <= len, except the glyph word, whose index the code tests against len *)
    assert (F : match (if negb (key =? 0) then chEnd <- w4 t o (7 + key) ;; Some (Some (7 + key, chEnd))
                       else bsearch4 t o c (S (N.to_nat (N.log2 nseg + 2))) 7 nseg) with
                | Some (Some (mid, _)) => 7 <= mid /\ mid < 7 + nseg | Some None => True | None => False end).
    { destruct (negb (key =? 0)).
      - rewrite (w4_val (7 + key)) by lia. cbn [bind]. lia.
      - pose proof (bsearch4_spec c (S (N.to_nat (N.log2 nseg + 2))) 7 nseg ltac:(lia) ltac:(lia)) as Hs.
        destruct (bsearch4 t o c (S (N.to_nat (N.log2 nseg + 2))) 7 nseg) as [[[mid ce]|]|]; [lia|exact I|exact Hs]. }
    destruct (if negb (key =? 0) then _ else _) as [[[mid ce]|]|]; [|discriminate|contradiction]. cbn [bind].
    rewrite (w4_val (mid + nseg + 1)) by lia. cbn [bind]. destruct (_ && _); [|discriminate].
    rewrite (w4_val (mid + nseg + 1 + nseg)), (w4_val (mid + nseg + 1 + nseg + nseg)) by lia. cbn [bind].
    destruct (_ =? 0); [discriminate|]. rewrite H1. cbn [bind].
    destruct (len <=? _) eqn:El; [discriminate|].
    rewrite w4_val by lia. discriminate.
  Qed.
End F4.

Theorem lookup4_safe t o : mem_wf t -> tlen t < S64 -> check4 t (Some o) = Some true ->
  forall c key sc, w4 t o 3 = Some sc -> key < sc / 2 -> lookup4 t o c key <> None.
Proof.
  intros W Hsz Hc c key sc Hsc Hk.
  destruct (check4_ok t o W Hsz Hc) as (sc' & len & H3 & H1 & Hpos & Hlen & Hin).
  assert (sc' = sc) by congruence. subst sc'.
  exact (lookup4_body_safe t o (sc / 2) len Hlen _ (fun k => w4_inside t o len k W Hin) c key sc eq_refl H3 H1 Hk).
Qed.
