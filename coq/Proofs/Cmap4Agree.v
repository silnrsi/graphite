(* Proofs/Cmap4Agree.v — Proofs/CmapSeg.v instantiated for format 4: on a subtable that CheckCmapSubtable4
   accepts and whose segments are well formed in the OpenType sense (start <= end, sorted, disjoint, last end 0xFFFF), the cache
   filled through CmapSubtable4NextCodepoint + keyed CmapSubtable4Lookup holds, for EVERY BMP code point, what the direct lookup
   (binary search of the end codes) returns. *)
From GR Require Import Model.CmapModel Proofs.CmapSafe Proofs.CmapSeg.
From Coq Require Import FMapPositive.
Local Open Scope N_scope.

Section Fmt4.
  Variable t : mem.
  Variable o nseg len sc : N.
  Hypothesis W : mem_wf t.
  Hypothesis Hlen : 16 + 8 * nseg <= len.
  Hypothesis Hin : o + len <= tlen t.
  Hypothesis H3 : w4 t o 3 = Some sc.
  Hypothesis Hsc : sc / 2 = nseg.
  Hypothesis H1 : w4 t o 1 = Some len.

  Definition wval (k : N) : N := match w4 t o k with Some v => v | None => 0 end.
  Lemma w4_val k : 2 * k + 2 <= len -> w4 t o k = Some (wval k).
  Proof. exact (w4_inside t o len k W Hin). Qed.
  Definition en (i : N) : N := wval (7 + i).
  Definition st (i : N) : N := wval (7 + nseg + 1 + i).

  Hypothesis n_pos : 1 <= nseg.
  Hypothesis wf_se : forall i, i < nseg -> st i <= en i.
  Hypothesis wf_sorted : forall i j, i < j -> j < nseg -> en i < st j.
  Hypothesis wf_last : en (nseg - 1) = 0xFFFF.

  Definition en_mono : forall i j, i <= j -> j < nseg -> en i <= en j := ev_mono nseg st en wf_se wf_sorted.
  Lemma en_le i : i < nseg -> en i <= 0xFFFF.
  Proof. intros Hi. rewrite <- wf_last. apply en_mono; lia. Qed.
  Lemma wval_mono a b : 7 <= a -> a <= b -> b < 7 + nseg -> wval a <= wval b.
  Proof.
    intros Ha Hab Hb. pose proof (en_mono (a - 7) (b - 7) ltac:(lia) ltac:(lia)) as H. unfold en in H.
    replace (7 + (a - 7)) with a in H by lia. replace (7 + (b - 7)) with b in H by lia. exact H.
  Qed.

  Lemma fuel_enough : nseg < 2 ^ N.of_nat (S (N.to_nat (N.log2 nseg + 2))).
  Proof.
    pose proof (N.log2_spec nseg ltac:(lia)) as [_ Hs].
    eapply N.lt_le_trans; [exact Hs|]. apply N.pow_le_mono_r; lia.
  Qed.

  (* the direct search: the first segment whose end code is >= c (it exists: the last end code is 0xFFFF) *)
  Lemma direct_found c : c <= 0xFFFF -> exists i, i < nseg /\ c <= en i /\ (forall j, j < i -> en j < c) /\
    bsearch4 t o c (S (N.to_nat (N.log2 nseg + 2))) 7 nseg = Some (Some (7 + i, en i)).
  Proof.
    intros Hc. pose proof (bsearch4_spec t o nseg len Hlen wval w4_val c (S (N.to_nat (N.log2 nseg + 2))) 7 nseg ltac:(lia) ltac:(lia)) as Hs.
    destruct (bsearch4 t o c (S (N.to_nat (N.log2 nseg + 2))) 7 nseg) as [[[mid ce]|]|]; [| |contradiction].
    - destruct Hs as (S1 & S2 & S3 & S4 & S5). exists (mid - 7). unfold en. replace (7 + (mid - 7)) with mid by lia. subst ce. repeat split; try lia.
      intros j Hj.
      pose proof (wval_mono (7 + j) (mid - 1) ltac:(lia) ltac:(lia) ltac:(lia)). lia.
    - specialize (Hs wval_mono fuel_enough (7 + (nseg - 1)) ltac:(lia) ltac:(lia)). pose proof wf_last as Hl. unfold en in Hl. lia.
  Qed.

  Definition dl4 (c : N) : N := match lookup4 t o c 0 with Some g => g | None => 0 end.

  (* a key that is not 0 names the segment the binary search finds (it is never nseg: the last end code is 0xFFFF) *)
  Lemma look_key4 c key : c <= 0xFFFF -> seg_key nseg en 0xFFFF c key -> lookup4 t o c key = Some (dl4 c).
  Proof.
    intros Hc Hg. unfold dl4.
    assert (Hsame : lookup4 t o c key = lookup4 t o c 0).
    { destruct Hg as [->|[Hlow [[Hk Hce]|[-> ->]]]]; [reflexivity| |specialize (Hlow (nseg - 1) ltac:(lia)); lia].
      destruct (N.eq_dec key 0) as [->|Hk0]; [reflexivity|].
      unfold lookup4. rewrite H3. cbn [bind]. rewrite Hsc. assert (E1 : negb (key =? 0) = true) by lia. rewrite E1.
      destruct (direct_found c Hc) as (i & Hi & Hci & Hli & ->).
      rewrite (w4_val (7 + key)) by lia.
      assert (i = key).
      { destruct (N.lt_trichotomy i key) as [Hlt|[->|Hgt]]; [specialize (Hlow i Hlt); lia|reflexivity|specialize (Hli key Hgt); lia]. }
      subst i. reflexivity. }
    rewrite Hsame. destruct (lookup4 t o c 0) as [g|] eqn:E; [reflexivity|]. exfalso.
    exact (lookup4_body_safe t o nseg len Hlen wval w4_val c 0 sc Hsc H3 H1 ltac:(lia) E).
  Qed.
  Lemma unmapped4 d : d <= 0xFFFF -> (forall i, i < nseg -> d < st i \/ en i < d) -> dl4 d = 0.
  Proof.
    intros Hd H. unfold dl4, lookup4. rewrite H3. cbn [bind]. rewrite Hsc. change (negb (0 =? 0)) with false.
    destruct (direct_found d Hd) as (i & Hi & Hci & Hli & ->). cbn [bind].
    rewrite (w4_val (7 + i + nseg + 1)) by lia. cbn [bind].
    assert (Es : wval (7 + i + nseg + 1) = st i) by (unfold st; f_equal; lia). rewrite Es.
    assert (E : ((d <=? en i) && (st i <=? d)) = false) by (specialize (H i Hi); lia). rewrite E. reflexivity.
  Qed.

  Lemma next4_body c key : 0 < c -> c < 0xFFFF ->
    next4 t o c key = next_body nseg 0xFFFF (fun i => w4 t o (7 + nseg + 1 + i)) (fun i => w4 t o (7 + i)) (fun s => s - 1) c key.
  Proof.
    intros Hc0 Hc1. unfold next4. rewrite H3. cbn [bind]. rewrite Hsc.
    assert (E1 : (c =? 0) = false) by lia. assert (E2 : (0xFFFF <=? c) = false) by lia. rewrite E1, E2.
    unfold next_body. destruct (dec_while _ _ _) as [i1|]; [|reflexivity]. cbn [bind].
    destruct (inc_while _ _ _ _) as [i2|]; [|reflexivity]. cbn [bind].
    replace (7 + nseg + 1 + i2 + 1) with (7 + nseg + 1 + (i2 + 1)) by lia. reflexivity.
  Qed.
  Lemma first4 : next4 t o 0 0 = Some (st 0, 0).
  Proof.
    unfold next4. rewrite H3. cbn [bind]. rewrite Hsc.
    rewrite (w4_val (7 + nseg + 1)) by lia. unfold st. replace (7 + nseg + 1 + 0) with (7 + nseg + 1) by lia. reflexivity.
  Qed.

  Theorem cached4_eq_direct : exists m, cache_subtable (next4 t o) (lookup4 t o) 0xFFFF (PositiveMap.empty N) = Some (Some m) /\
    forall d, d <= 0xFFFF -> lookup4 t o d 0 = Some (cget m d).
  Proof.
    apply (seg_cached_eq_direct nseg st en wf_se wf_sorted 0xFFFF n_pos
             (fun i => w4 t o (7 + nseg + 1 + i)) (fun i => w4 t o (7 + i)) (fun s => s - 1)) with (dl := dl4).
    - intros i Hi. apply w4_val. lia.
    - intros i Hi. apply w4_val. lia.
    - reflexivity.
    - exact next4_body.
    - exact first4.
    - exact look_key4.
    - exact unmapped4.
    - lia.
  Qed.
End Fmt4.

(* a format-4 subtable whose segments are well formed in the OpenType sense *)
Definition wf4 (t : mem) (o : N) : Prop :=
  exists sc, w4 t o 3 = Some sc /\
    (forall i, i < sc / 2 -> st t o (sc / 2) i <= en t o i) /\
    (forall i j, i < j -> j < sc / 2 -> en t o i < st t o (sc / 2) j) /\
    en t o (sc / 2 - 1) = 0xFFFF.

Theorem cached4_eq_direct_checked t o : mem_wf t -> tlen t < S64 -> check4 t (Some o) = Some true -> wf4 t o ->
  exists m, cache_subtable (next4 t o) (lookup4 t o) 0xFFFF (PositiveMap.empty N) = Some (Some m) /\
            forall d, d <= 0xFFFF -> lookup4 t o d 0 = Some (cget m d).
Proof.
  intros W Hsz Hc (sc & H3 & Hse & Hso & Hla).
  destruct (check4_ok t o W Hsz Hc) as (sc' & len & H3' & H1 & Hpos & Hlen & Hin). rewrite H3 in H3'. injection H3' as <-.
  exact (cached4_eq_direct t o (sc / 2) len sc W Hlen Hin H3 eq_refl H1 ltac:(lia) Hse Hso Hla).
Qed.
