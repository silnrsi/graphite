(* Proofs/MemoProofs.v — the glyph cache is observationally a pure function: every lookup, after any history, lazily or
   preloaded, returns [spec gid]; a preloaded cache is never written. *)
From GR Require Import Base.Bytes Model.MemoModel.
Local Open Scope N_scope.

Section MemoProofs.
  Variable V : Type.
  Variable load : N -> option V.
  Variable n : N.
  Notation gcache := (gcache V).
  Notation glyph := (glyph V load n).
  Notation spec := (spec V load n).
  Notation run := (run V load n).

  Definition Inv (c : gcache) : Prop :=
    length (gc_slots V c) = N.to_nat n /\ 0 < n /\
    (exists v0, load 0 = Some v0 /\ nth 0 (gc_slots V c) None = Some v0) /\
    (forall k : nat, (k < N.to_nat n)%nat -> match nth k (gc_slots V c) None with Some v => load (N.of_nat k) = Some v | None => gc_loader V c = true end).

  Lemma set_nth_length k v l : length (set_nth V k v l) = length l.
  Proof. revert k; induction l as [|x l IH]; intros [|k]; cbn [set_nth length]; try reflexivity. rewrite IH; reflexivity. Qed.
  Lemma nth_set_nth k j v l : (k < length l)%nat -> nth j (set_nth V k v l) None = if Nat.eqb j k then v else nth j l None.
  Proof.
    revert k j; induction l as [|x l IH]; intros k j Hk; cbn [length] in Hk; [lia|].
    destruct k as [|k]; destruct j as [|j]; cbn [set_nth nth Nat.eqb]; try reflexivity. apply IH. lia.
  Qed.

  (* the one write to the cache: the slot of a glyph takes what the loader returned for it *)
  Lemma Inv_cache g v c : Inv c -> g < n -> load g = Some v -> Inv (mkgc V (set_nth V (N.to_nat g) (Some v) (gc_slots V c)) true).
  Proof.
    intros (Hlen & Hn & (v0 & H0 & Hs0) & Hall) Hlt El.
    assert (Hk : (N.to_nat g < length (gc_slots V c))%nat) by lia.
    split; [|split; [|split]]; cbn [gc_slots gc_loader].
    - rewrite set_nth_length. exact Hlen.
    - exact Hn.
    - exists v0. split; [exact H0|]. rewrite nth_set_nth by exact Hk.
      destruct (Nat.eqb_spec 0 (N.to_nat g)) as [Heq|Hne]; [|exact Hs0].
      assert (g = 0) by lia. subst g. rewrite El in H0. exact H0.
    - intros k Hklt. rewrite nth_set_nth by exact Hk.
      destruct (Nat.eqb_spec k (N.to_nat g)) as [->|Hne]; [rewrite N2Nat.id; exact El|].
      specialize (Hall k Hklt). destruct (nth k (gc_slots V c) None); [exact Hall | reflexivity].
  Qed.

  Lemma glyph_correct g c : Inv c ->
    fst (glyph g c) = spec g /\ Inv (snd (glyph g c)) /\ (gc_loader V c = false -> snd (glyph g c) = c).
  Proof.
    intros Hi. pose proof Hi as [Hlen [Hn [[v0 [H0 Hs0]] Hall]]].
    unfold MemoModel.glyph, MemoModel.spec.
    destruct (N.leb_spec n g) as [Hge|Hlt].
    - rewrite H0. auto.
    - specialize (Hall (N.to_nat g) ltac:(lia)) as Hg. rewrite N2Nat.id in Hg.
      destruct (nth (N.to_nat g) (gc_slots V c) None) as [v|] eqn:E.
      + rewrite Hg. auto.
      + rewrite Hg. destruct (load g) as [v|] eqn:El; cbn [fst snd].
        * split; [reflexivity|]. split; [exact (Inv_cache g v c Hi Hlt El) | discriminate].
        * rewrite H0. auto.
  Qed.

  Lemma run_correct : forall gids c, Inv c ->
    fst (run c gids) = map spec gids /\ Inv (snd (run c gids)) /\ (gc_loader V c = false -> snd (run c gids) = c).
  Proof.
    induction gids as [|g r IH]; intros c Hi; cbn [MemoModel.run map]; [auto|].
    destruct (glyph_correct g c Hi) as (Hv & Hi1 & Hro). destruct (glyph g c) as [v c1].
    destruct (IH c1 Hi1) as (Hvs & Hi2 & Hro2). destruct (run c1 r) as [vs c2]. cbn [fst snd] in *.
    split; [rewrite Hv, Hvs; reflexivity | split; [exact Hi2|]].
    intros Hf. specialize (Hro Hf). subst c1. exact (Hro2 Hf).
  Qed.

  Lemma init_lazy_inv c : init_lazy V load n = Some c -> Inv c.
  Proof.
    unfold init_lazy. destruct (N.eqb_spec n 0) as [|Hn]; [discriminate|].
    unfold MemoModel.glyph. destruct (N.leb_spec n 0); [lia|].
    destruct (N.to_nat n) as [|m] eqn:En; [lia|].
    destruct (load 0) as [v0|] eqn:E0; [|discriminate].
    intros Hc. injection Hc as <-.
    split; [|split; [|split]]; cbn [gc_slots gc_loader].
    - cbn [length]. rewrite repeat_length, En. reflexivity.
    - lia.
    - exists v0. split; [exact E0 | reflexivity].
    - intros [|k] Hklt; cbn [nth]; [exact E0|]. rewrite nth_repeat. reflexivity.
  Qed.

  Lemma load_all_cases : forall k from,
    match load_all V load k from with
    | Some l => length l = k /\ forall j, (j < k)%nat -> exists v, load (from + N.of_nat j) = Some v /\ nth j l None = Some v
    | None => exists i, (i < k)%nat /\ load (from + N.of_nat i) = None
    end.
  Proof.
    induction k as [|k IH]; intros from; cbn [load_all]; [split; [reflexivity | intros j Hj; lia]|].
    destruct (load from) as [v|] eqn:E; [|exists 0%nat; rewrite N.add_0_r; split; [lia | exact E]].
    specialize (IH (from + 1)). destruct (load_all V load k (from + 1)) as [r|].
    - destruct IH as [Hl Hn]. split; [cbn [length]; lia|]. intros [|j] Hj; cbn [nth].
      + exists v. rewrite N.add_0_r. split; [exact E | reflexivity].
      + replace (from + N.of_nat (S j)) with (from + 1 + N.of_nat j) by lia. apply Hn. lia.
    - destruct IH as (j & Hj & Hn). exists (S j). replace (from + N.of_nat (S j)) with (from + 1 + N.of_nat j) by lia. split; [lia | exact Hn].
  Qed.

  Lemma init_preload_refused_iff : init_preload V load n = None <-> n = 0 \/ exists g, g < n /\ load g = None.
  Proof.
    unfold init_preload. destruct (N.eqb_spec n 0) as [->|Hn]; [split; [left; reflexivity|reflexivity]|].
    pose proof (load_all_cases (N.to_nat n) 0) as H. destruct (load_all V load (N.to_nat n) 0) as [l|].
    - split; [discriminate|]. intros [H0|(g & Hg & Hl)]; [contradiction|].
      destruct (proj2 H (N.to_nat g) ltac:(lia)) as (v & Hv & _). rewrite N.add_0_l, N2Nat.id in Hv. congruence.
    - split; [|reflexivity]. right. destruct H as (i & Hi & Hl). exists (N.of_nat i). split; [lia | exact Hl].
  Qed.

  Lemma init_preload_inv c : init_preload V load n = Some c -> Inv c /\ gc_loader V c = false.
  Proof.
    unfold init_preload. destruct (N.eqb_spec n 0) as [|Hn]; [discriminate|].
    pose proof (load_all_cases (N.to_nat n) 0) as H0.
    destruct (load_all V load (N.to_nat n) 0) as [l|]; [|discriminate]. intros H. injection H as <-.
    destruct H0 as [Hl Hall]. split; [|reflexivity].
    split; [|split; [|split]]; cbn [gc_slots gc_loader].
    - exact Hl.
    - lia.
    - destruct (Hall 0%nat ltac:(lia)) as [v [Hv1 Hv2]]. exists v. split; assumption.
    - intros k Hk. destruct (Hall k Hk) as [v [Hv1 Hv2]]. rewrite Hv2. exact Hv1.
  Qed.
End MemoProofs.
Arguments glyph_correct {V load n} g {c}.
Arguments run_correct {V load n} gids {c}.
Arguments init_lazy_inv {V load n c}.
Arguments init_preload_inv {V load n c}.
