(* Proofs/GlatProofs.v — the glyph-attribute reader never reads outside the Gloc or the Glat table, whatever bytes they hold:
   the header checks do not trap, and once they accepted the tables, reading the attributes of ANY glyph below the attributed-glyph
   count does not trap and terminates within its fuel. *)
From GR Require Import Base.Mem Base.MemFacts Model.GlatModel.
From Coq Require Import ZifyN ZifyBool.
Local Open Scope N_scope.

Lemma rdw_some wide t i : mem_wf t -> i + wsz wide <= tlen t -> exists v, rdw wide t i = Some v.
Proof. intros W H. unfold rdw, wsz in *. destruct wide; [apply r16_some|apply rdb_some]; try assumption; lia. Qed.

Lemma glat_iter_safe wide t fin : mem_wf t -> fin <= tlen t -> forall fuel e v n acc, (N.to_nat (fin - v) < fuel)%nat -> e + 2 * wsz wide + 2 * n = v ->
  glat_iter fuel wide t e v n fin acc <> GTrap.
Proof.
  intros W Hf. induction fuel as [|fuel IH]; intros e v n acc Hm Hi; [lia|]. cbn [glat_iter].
  destruct (fin <=? v + 1) eqn:E0; [discriminate|].
  destruct (rdw_some wide t e W ltac:(lia)) as [k ->]. destruct (r16_some t v W ltac:(lia)) as [x ->].
  destruct (rdw_some wide t (e + wsz wide) W ltac:(lia)) as [run ->].
  destruct (n + 1 =? run); apply IH; lia.
Qed.

Lemma glat_loader_spec gloc glat ng : mem_wf gloc -> mem_wf glat ->
  match glat_loader gloc glat ng with
  | None => False
  | Some None => True
  | Some (Some l) => 8 + (if gl_long l then 4 else 2) * (gl_nglyphs l + 1) <= tlen gloc /\ 4 <= tlen glat
  end.
Proof.
  intros Wl Wa. unfold glat_loader. destruct (tlen gloc <? 8) eqn:E0; [exact I|].
  destruct (r32_some gloc 0 Wl ltac:(lia)) as [ver ->]. destruct (r16_some gloc 4 Wl ltac:(lia)) as [flags ->]. destruct (r16_some gloc 6 Wl ltac:(lia)) as [na ->].
  cbn [bind].
  set (long := N.testbit flags 0). set (ids := if N.testbit flags 1 then 2 * na else 0). clearbody long ids.
  destruct (tlen gloc - 8 <? ids) eqn:E1; [exact I|].
  destruct (_ || (tlen glat <? 4)) eqn:Ec; [exact I|].
  destruct (r32_some glat 0 Wa ltac:(lia)) as [gv ->]. cbn [bind]. destruct ((_ <=? gv) || _); [exact I|].
  cbn [gl_long gl_nglyphs]. destruct long; lia.
Qed.

Theorem glat_loader_total gloc glat ng : mem_wf gloc -> mem_wf glat -> glat_loader gloc glat ng <> None.
Proof. intros Wl Wa E. pose proof (glat_loader_spec gloc glat ng Wl Wa) as S. rewrite E in S. exact S. Qed.

Theorem read_attrs_safe gloc glat ng l : mem_wf gloc -> mem_wf glat -> glat_loader gloc glat ng = Some (Some l) ->
  forall gid, gid < gl_nglyphs l -> read_attrs l gloc glat gid <> GTrap.
Proof.
  intros Wl Wa Hl gid Hg. pose proof (glat_loader_spec gloc glat ng Wl Wa) as S. rewrite Hl in S. destruct S as [Hq _].
  destruct l as [long na ngl gv]. cbn [gl_long gl_nattrs gl_nglyphs gl_ver] in *.
  unfold read_attrs. cbn [gl_long gl_nattrs gl_nglyphs gl_ver].
  destruct (tlen gloc <? 8 + gid * (if long then 4 else 2)); [discriminate|].
  (* the test just passed bounds only the start of entry gid; entries gid and gid + 1 lie inside because gid is below the count the loader took from the Gloc length (Hq) *)
  assert (Hs : exists a b, (if long then r32 gloc (8 + 4 * gid) else r16 gloc (8 + 2 * gid)) = Some a /\
                            (if long then r32 gloc (8 + 4 * gid + 4) else r16 gloc (8 + 2 * gid + 2)) = Some b).
  { destruct long.
    - destruct (r32_some gloc (8 + 4 * gid) Wl ltac:(lia)) as [a Ha]. destruct (r32_some gloc (8 + 4 * gid + 4) Wl ltac:(lia)) as [b Hb]. exists a, b. split; assumption.
    - destruct (r16_some gloc (8 + 2 * gid) Wl ltac:(lia)) as [a Ha]. destruct (r16_some gloc (8 + 2 * gid + 2) Wl ltac:(lia)) as [b Hb]. exists a, b. split; assumption. }
  destruct Hs as (glocs & gloce & -> & ->).
  destruct ((tlen glat - 1 <=? glocs) || (tlen glat <? gloce)) eqn:Eb; [discriminate|].
  set (adj := if 0x30000 <=? gv then _ else _).
  assert (Ha : adj <> None).
  { unfold adj. destruct (0x30000 <=? gv); [|discriminate]. destruct (gloce <=? glocs); [discriminate|].
    destruct (r16_some glat glocs Wa ltac:(lia)) as [bm ->]. destruct (gloce <? _); discriminate. }
  (* whatever start the skipped octabox header leaves, the tests that follow bound the block [gs, gloce) by themselves *)
  destruct adj as [[gs|]|]; [|discriminate|contradiction].
  destruct (gv <? 0x20000).
  - destruct ((gloce <? gs) || (gloce - gs <? 4) || (na * 4 <? gloce - gs)) eqn:Ek; [discriminate|].
    apply (glat_iter_safe false glat gloce Wa ltac:(lia)); [lia|unfold wsz; lia].
  - destruct ((gloce <? gs) || (gloce - gs <? 6) || (na * 6 <? gloce - gs) || (tlen glat - 4 <? gs)) eqn:Ek; [discriminate|].
    apply (glat_iter_safe true glat gloce Wa ltac:(lia)); [lia|unfold wsz; lia].
Qed.
