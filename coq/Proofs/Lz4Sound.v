(* Proofs/Lz4Sound.v — what each outcome of lz4::decompress means ([decompress_outcome]: [loop_outcome] at the decoder's entry).  Read off
   it: memory safety (no read outside the input, no read or write outside the output array, termination within the fuel), the output
   array keeps its length, the fast decoder is SOUND (whenever it accepts a block, the bytes it produced are exactly the byte-wise
   reference decoding [lz4_ref] of that block) and, within the block format's margins, COMPLETE (on margin-respecting blocks that pass the
   size test at the decoder's entry, at least MINSRCSIZE bytes and shorter than their data, the decoder IS the reference; blocks outside
   the margins or shorter than MINSRCSIZE are the recorded finding).  Soundness and length preservation assume nothing about the size of
   the output array: hence outcomes, Trap meaning "too short". *)
From GR Require Import Base.Bytes Model.Lz4Model Proofs.Lz4Safe Proofs.Lz4Complete.
Local Open Scope nat_scope.

(* a refusal is the size test at the entry or the loop's *)
Theorem decompress_outcome src osz out0 : match decompress src osz out0 with
  | Ok n out => length out = length out0 /\ n <= length out /\
      ((N.of_nat (length src) < U32 - 1)%N -> lz4_ref src = Some (firstn n out))
  | Trap => length out0 < osz
  | OutOfFuel => False
  | Fail => osz <= length src \/ length src < MINSRCSIZE \/
      forall data, (N.of_nat osz < U32)%N -> margins (S (length src)) src = true -> lz4_ref src = Some data -> length data <> osz end.
Proof.
  unfold decompress, MINSRCSIZE. destruct (_ || _) eqn:E; [lia|].
  assert (Hs : src <> []) by (intros ->; cbn [length] in E; lia).
  pose proof (loop_outcome (S (length src)) src out0 0 osz Hs) as H. unfold lz4_ref. change (abs out0 0) with (@nil N) in H.
  destruct (loop _ _ _ _ _) as [| | |n out]; [lia|lia| |].
  - right. right. intros data Ho Hm Hr. destruct (ref_decode _ _ _) as [outr|]; [|discriminate]. injection Hr as <-.
    rewrite rev_length. apply H; [lia|lia|exact Ho|exact Hm|reflexivity].
  - destruct H as (L & B & HS). split; [exact L|]. split; [exact B|]. intros Hb.
    rewrite (HS Hb). unfold abs. rewrite rev_involutive. reflexivity.
Qed.

Theorem decompress_safe src osz out0 : length out0 = osz ->
  decompress src osz out0 <> Trap /\ decompress src osz out0 <> OutOfFuel.
Proof.
  intros Hl. pose proof (decompress_outcome src osz out0) as H.
  destruct (decompress src osz out0); split; try discriminate; [lia|destruct H].
Qed.

Theorem decompress_sound [src osz out0 n out] : (N.of_nat (length src) < U32 - 1)%N ->
  decompress src osz out0 = Ok n out -> lz4_ref src = Some (firstn n out).
Proof. intros Hb E. pose proof (decompress_outcome src osz out0) as H. rewrite E in H. apply H, Hb. Qed.

Lemma decompress_length {src osz out0 n out} : decompress src osz out0 = Ok n out -> length out = length out0.
Proof. intros E. pose proof (decompress_outcome src osz out0) as H. rewrite E in H. apply H. Qed.

Theorem decompress_complete src data out0 : lz4_ref src = Some data -> margins (S (length src)) src = true ->
  MINSRCSIZE <= length src -> length src < length data -> (N.of_nat (length data) < U32 - 8)%N -> length out0 = length data ->
  decompress src (length data) out0 = Ok (length data) data.
Proof.
  intros Href Hmar Hmin Hgrow Hb Hl. pose proof (decompress_outcome src (length data) out0) as H.
  destruct (decompress _ _ _) as [| | |n out]; [lia|destruct H| |].
  - exfalso. destruct H as [H|[H|H]]; [lia|lia|]. apply (H data); [unfold U32 in *; lia|exact Hmar|exact Href|reflexivity].
  - destruct H as (L & B & HS). rewrite Href in HS. injection (HS ltac:(unfold U32 in *; lia)) as ->.
    rewrite firstn_length in *. rewrite Nat.min_l, firstn_all2 by lia. reflexivity.
Qed.
