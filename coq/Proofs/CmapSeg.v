(* Proofs/CmapSeg.v — the argument that formats 4 and 12 share: a table of n sorted, disjoint segments [sv i, ev i], read through
   two checked accessors; NextCodepoint is the same two scans over it in both formats ([next_body]); a range key is good for a code
   point when it is 0 or the index of the first segment ending at or after it, n for the limit past the last segment ([seg_key]).
   Whatever the keyed lookup is, if it returns the direct result on good keys and 0 outside every segment, the cache filled through
   NextCodepoint agrees with it. *)
From GR Require Import Model.CmapModel Proofs.CmapCache.
From Coq Require Import FMapPositive.
Local Open Scope N_scope.

Section Seg.
  Variables (n : N) (sv ev : N -> N).
  Hypothesis wf_se : forall i, i < n -> sv i <= ev i.
  Hypothesis wf_sorted : forall i j, i < j -> j < n -> ev i < sv j.

  Lemma ev_mono i j : i <= j -> j < n -> ev i <= ev j.
  Proof.
    intros Hij Hj. destruct (N.eq_dec i j) as [->|Hne]; [lia|].
    pose proof (wf_sorted i j ltac:(lia) Hj). pose proof (wf_se j Hj). lia.
  Qed.

  Variable limit : N.
  Hypothesis n_pos : 1 <= n.

  Definition seg_key (c key : N) : Prop :=
    key = 0 \/ ((forall j, j < key -> ev j < c) /\ (key < n /\ c <= ev key \/ key = n /\ c = limit)).

  (* NextCodepoint over checked readers of the start and end codes; [dec] is the format's "start - 1" *)
  Variables rs re : N -> option N.
  Variable dec : N -> N.
  Hypothesis rs_val : forall i, i < n -> rs i = Some (sv i).
  Hypothesis re_val : forall i, i < n -> re i = Some (ev i).
  Hypothesis dec_val : forall i, i < n -> 0 < sv i -> dec (sv i) = sv i - 1.

  Definition next_body (c key : N) : option (N * N) :=
    i1 <- dec_while (S (N.to_nat key)) (fun i => s <- rs i ;; Some (c <? s)) key ;;
    i2 <- inc_while (S (N.to_nat n)) (fun i => e <- re i ;; Some (e <? c)) (n - 1) i1 ;;
    s <- rs i2 ;;
    e <- re i2 ;;
    let c' := if c <? s then dec s else c in
    if c' <? e then Some (c' + 1, i2)
    else if n <=? i2 + 1 then Some (limit, i2 + 1)
    else s' <- rs (i2 + 1) ;; Some (s', i2 + 1).

  Lemma dec_spec c : forall fuel i, i < n -> (N.to_nat i < fuel)%nat ->
    exists r, dec_while fuel (fun i => s <- rs i ;; Some (c <? s)) i = Some r /\ r <= i /\ (r = 0 \/ sv r <= c).
  Proof.
    induction fuel as [|fuel IH]; intros i Hi Hf; [lia|]. cbn [dec_while].
    destruct (i =? 0) eqn:E0; [exists i; repeat split; try lia|].
    rewrite (rs_val i Hi). cbn [bind].
    destruct (c <? sv i) eqn:Ec.
    - destruct (IH (i - 1) ltac:(lia) ltac:(lia)) as (r & Hr & Hle & Hz). exists r. repeat split; try assumption; lia.
    - exists i. repeat split; try lia.
  Qed.
  Lemma inc_spec c : forall fuel i, i <= n - 1 -> (N.to_nat (n - 1 - i) < fuel)%nat ->
    exists r, inc_while fuel (fun i => e <- re i ;; Some (e <? c)) (n - 1) i = Some r /\ i <= r /\ r <= n - 1 /\
              (forall j, i <= j -> j < r -> ev j < c).
  Proof.
    induction fuel as [|fuel IH]; intros i Hi Hf; [lia|]. cbn [inc_while].
    destruct (n - 1 <=? i) eqn:E0; [exists i; repeat split; try lia|].
    rewrite (re_val i) by lia. cbn [bind].
    destruct (ev i <? c) eqn:Ec.
    - destruct (IH (i + 1) ltac:(lia) ltac:(lia)) as (r & Hr & H1 & H2 & H3). exists r. repeat split; try assumption; try lia.
      intros j Hj1 Hj2. destruct (N.eq_dec j i) as [->|Hne]; [lia|apply H3; lia].
    - exists i. repeat split; try lia.
  Qed.

  Variable nextf : N -> N -> option (N * N).
  Variable lookf : N -> N -> option N.
  Variable dl : N -> N.
  Hypothesis next_eq : forall c key, 0 < c -> c < limit -> nextf c key = next_body c key.
  Hypothesis first_eq : nextf 0 0 = Some (sv 0, 0).
  Hypothesis look_key : forall c key, c <= limit -> seg_key c key -> lookf c key = Some (dl c).
  Hypothesis unmapped : forall d, d <= limit -> (forall i, i < n -> d < sv i \/ ev i < d) -> dl d = 0.

  (* the ways NextCodepoint moves on from c, from any key inside the table (the two scans are there to correct a bad key), i2 being
     the segment they stop on: within i2 or up to its start; past it, to the start of the next segment or, after the last, to the limit *)
  Lemma next_cases c key : 0 < c -> c < limit -> key < n ->
    exists i2, i2 < n /\ (forall j, j < i2 -> ev j < c) /\ exists nx k, nextf c key = Some (nx, k) /\
      (k = i2 /\ nx <= ev i2 /\ (nx = c + 1 /\ sv i2 <= nx \/ c < nx /\ nx = sv i2) \/
       k = i2 + 1 /\ ev i2 <= c /\ (i2 + 1 = n /\ nx = limit \/ i2 + 1 < n /\ nx = sv (i2 + 1))).
  Proof.
    intros Hc0 Hc1 Hk.
    destruct (dec_spec c (S (N.to_nat key)) key Hk ltac:(lia)) as (i1 & Hd & Hd1 & Hd2).
    destruct (inc_spec c (S (N.to_nat n)) i1 ltac:(lia) ltac:(lia)) as (i2 & Hi & Hi1 & Hi2 & Hi3).
    exists i2. split; [lia|]. split.
    { intros j Hj. destruct (N.lt_ge_cases j i1) as [Hlt|Hge]; [|apply Hi3; lia].
      pose proof (wf_sorted j i1 Hlt ltac:(lia)). lia. }
    rewrite next_eq by assumption. unfold next_body. rewrite Hd. cbn [bind]. rewrite Hi. cbn [bind].
    rewrite (rs_val i2), (re_val i2) by lia. cbn [bind]. pose proof (wf_se i2 ltac:(lia)) as Ws.
    assert (Ec : (if c <? sv i2 then dec (sv i2) else c) = (if c <? sv i2 then sv i2 - 1 else c)).
    { destruct (c <? sv i2) eqn:E; [|reflexivity]. apply dec_val; lia. }
    rewrite Ec. destruct (_ <? ev i2) eqn:E1; [|destruct (n <=? i2 + 1) eqn:E3].
    - eexists _, _. split; [reflexivity|]. destruct (c <? sv i2) eqn:E2; lia.
    - eexists _, _. split; [reflexivity|]. destruct (c <? sv i2) eqn:E2; lia.
    - rewrite (rs_val (i2 + 1)) by lia. eexists _, _. split; [reflexivity|]. destruct (c <? sv i2) eqn:E2; lia.
  Qed.

  Lemma seg_key_lt c key : c < limit -> seg_key c key -> key < n.
  Proof. intros Hc [->|[_ [[Hk _]|[_ Hk]]]]; lia. Qed.

  Lemma next_good c key nx k : 0 < c -> c < limit -> seg_key c key -> nextf c key = Some (nx, k) -> c < nx -> nx <= limit -> seg_key nx k.
  Proof.
    intros Hc0 Hc1 Hg E Hlt Hle. destruct (next_cases c key Hc0 Hc1 (seg_key_lt c key Hc1 Hg)) as (i2 & Hi & Hs & nx' & k' & E' & Hk).
    rewrite E in E'. injection E' as <- <-. destruct Hk as [(-> & He & Hn)|(-> & He & [[En ->]|[En ->]])]; right.
    - split; [intros j Hj; specialize (Hs j Hj); lia|left; split; [exact Hi|exact He]].
    - split; [intros j Hj; pose proof (ev_mono j i2 ltac:(lia) Hi); lia|right; split; [exact En|reflexivity]].
    - split; [intros j Hj; pose proof (wf_sorted j (i2 + 1) ltac:(lia) En); lia|left; split; [exact En|apply wf_se; exact En]].
  Qed.

  Lemma next_skips c key nx k : 0 < c -> c < limit -> seg_key c key -> nextf c key = Some (nx, k) ->
    forall d, c < d -> d < nx -> d <= limit -> dl d = 0.
  Proof.
    intros Hc0 Hc1 Hg E d Hd1 Hd2 Hd3. destruct (next_cases c key Hc0 Hc1 (seg_key_lt c key Hc1 Hg)) as (i2 & Hi & Hs & nx' & k' & E' & Hk).
    rewrite E in E'. injection E' as <- <-.
    apply (unmapped d Hd3). intros i Hin.
    destruct (N.lt_trichotomy i i2) as [Hlt|[->|Hgt]]; [right; specialize (Hs i Hlt); lia|lia|].
    pose proof (wf_sorted i2 i Hgt Hin). destruct Hk as [?|(_ & _ & [?|[En ->]])]; [lia|lia|].
    destruct (N.eq_dec i (i2 + 1)) as [->|Hne]; [lia|].
    pose proof (wf_sorted (i2 + 1) i ltac:(lia) Hin). pose proof (wf_se (i2 + 1) En). lia.
  Qed.

  Lemma next_total c key : 0 < c -> c < limit -> seg_key c key -> nextf c key <> None.
  Proof.
    intros Hc0 Hc1 Hg. destruct (next_cases c key Hc0 Hc1 (seg_key_lt c key Hc1 Hg)) as (_ & _ & _ & nx & k & -> & _). discriminate.
  Qed.

  Lemma first_good c0 k0 : nextf 0 0 = Some (c0, k0) -> (c0 <= limit -> seg_key c0 k0) /\ (forall d, d < c0 -> d <= limit -> dl d = 0).
  Proof.
    rewrite first_eq. intros E. injection E as <- <-. split; [intros _; left; reflexivity|].
    intros d Hd Hd2. apply (unmapped d Hd2). intros i Hi. left. destruct (N.eq_dec i 0) as [->|Hne]; [exact Hd|].
    pose proof (wf_sorted 0 i ltac:(lia) Hi). pose proof (wf_se 0 ltac:(lia)). lia.
  Qed.

  Theorem seg_cached_eq_direct : limit <= 0x10FFFF ->
    exists m, cache_subtable nextf lookf limit (PositiveMap.empty N) = Some (Some m) /\ forall d, d <= limit -> lookf d 0 = Some (cget m d).
  Proof.
    intros Hl.
    destruct (cache_subtable_total_G nextf lookf limit dl seg_key look_key (fun c _ => or_introl eq_refl) next_good next_skips next_total
                (PositiveMap.empty N) (fun d _ _ => cget_empty d) first_good) as (m & E & Hm); [rewrite first_eq; discriminate|exact Hl|].
    exists m. split; [exact E|]. intros d Hd. rewrite (Hm d Hd). apply look_key; [exact Hd|left; reflexivity].
  Qed.
End Seg.
