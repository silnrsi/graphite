(* Base/Bits.v — shift / mask operations as arithmetic (for the rest: N.land_ones, N.shiftr_div_pow2, N.shiftl_mul_pow2) *)
From Coq Require Import NArith Lia.
Local Open Scope N_scope.

Lemma testbit_small v n j : v < 2 ^ n -> n <= j -> N.testbit v j = false.
Proof. intros Hv Hj. rewrite <- (N.mod_small v (2 ^ n)) by exact Hv. apply N.mod_pow2_bits_high. exact Hj. Qed.

Lemma lor_shiftl_add a b n : a < 2 ^ n -> N.lor a (N.shiftl b n) = a + b * 2 ^ n.
Proof.
  intros Ha. assert (H : N.land a (N.shiftl b n) = 0).
  { apply N.bits_inj_0. intros m. rewrite N.land_spec. destruct (N.lt_ge_cases m n) as [Hlt|Hge].
    - rewrite (N.shiftl_spec_low b n m Hlt). apply Bool.andb_false_r.
    - rewrite (testbit_small a n) by assumption. reflexivity. }
  rewrite <- N.lxor_lor, <- N.add_nocarry_lxor, N.shiftl_mul_pow2 by exact H. reflexivity.
Qed.

Lemma land_himask_w x n w : n <= w -> x < 2 ^ w ->
  N.land x (N.shiftl (N.ones (w - n)) n) = (x / 2 ^ n) * 2 ^ n.
Proof.
  intros Hn Hx. apply N.bits_inj. intros m.
  rewrite N.land_spec, <- N.shiftl_mul_pow2, <- N.shiftr_div_pow2.
  destruct (N.lt_ge_cases m n) as [Hlt|Hge].
  - rewrite !N.shiftl_spec_low by exact Hlt. apply Bool.andb_false_r.
  - rewrite !N.shiftl_spec_high' by exact Hge.
    rewrite N.shiftr_spec'. replace (m - n + n) with m by lia.
    destruct (N.lt_ge_cases m w) as [Hw|Hw].
    + rewrite N.ones_spec_low by lia. apply Bool.andb_true_r.
    + rewrite N.ones_spec_high by lia. rewrite Bool.andb_false_r.
      symmetry. apply (testbit_small x w); assumption.
Qed.

Lemma low_bits tag d n : d < 2 ^ n -> tag mod 2 ^ n = 0 -> N.land (tag + d) (N.ones n) = d.
Proof.
  intros Hd Ht. rewrite N.land_ones, N.add_mod, Ht, N.add_0_l, N.mod_mod, N.mod_small by (try apply N.pow_nonzero; easy).
  reflexivity.
Qed.
