(* Base/MemFacts.v — when checked reads succeed *)
From GR Require Import Base.Mem.
Local Open Scope N_scope.

Lemma mem_of_list_wf l : mem_wf (mem_of_list l).
Proof.
  intros i. unfold mem_of_list. cbn [m_rd m_len]. rewrite nth_error_Some. lia.
Qed.

Lemma rdb_some t i : mem_wf t -> i < tlen t -> exists v, rdb t i = Some v.
Proof.
  unfold rdb, tlen. intros W H. destruct (m_rd t i) eqn:E; [eexists; reflexivity|].
  exfalso. apply (proj2 (W i) H). exact E.
Qed.
Lemma rdb_inside t i v : mem_wf t -> rdb t i = Some v -> i < tlen t.
Proof. unfold rdb, tlen. intros W H. apply (proj1 (W i)). rewrite H. discriminate. Qed.

Lemma r16_some t i : mem_wf t -> i + 2 <= tlen t -> exists v, r16 t i = Some v.
Proof.
  intros W H. unfold r16. destruct (rdb_some t i W) as [a Ha]; [lia|]. destruct (rdb_some t (i + 1) W) as [b Hb]; [lia|].
  rewrite Ha, Hb. eexists; reflexivity.
Qed.
Lemma r16_inside t i v : mem_wf t -> r16 t i = Some v -> i + 2 <= tlen t.
Proof.
  intros W. unfold r16. destruct (rdb t i); [|discriminate]. destruct (rdb t (i + 1)) eqn:Eb; [|discriminate].
  apply (rdb_inside t _ _ W) in Eb. lia.
Qed.
Lemma r32_some t i : mem_wf t -> i + 4 <= tlen t -> exists v, r32 t i = Some v.
Proof.
  intros W H. unfold r32. destruct (r16_some t i W) as [a Ha]; [lia|]. destruct (r16_some t (i + 2) W) as [b Hb]; [lia|].
  rewrite Ha, Hb. eexists; reflexivity.
Qed.
